(* C16 - The JOSE header set by the issuer reaches holder and verifier unchanged. *)
From Coq Require Import List String Ascii Bool Arith NArith.
Import ListNotations.
Require Import SDJ.Json SDJ.Wire SDJ.Model2 SDJ.Out SDJ.Jwt SDJ.C04Proofs.
Local Open Scope string_scope.

(* for every header value (all strings, all list lengths, every subset of the nine optional fields, all 13
   algorithms): the JSON of the translated header has each set field under the member of the same meaning,
   no member for an unset field, and no other member *)
Theorem C16_header_roundtrip :
  forall h,
  let j := jheader_json (build_header h) in
  jget "alg" j = JStr (jalg_name (h_alg h)) /\ jget "typ" j = opt_str_json (h_typ h) /\ jget "cty" j = opt_str_json (h_cty h) /\
  jget "jku" j = opt_str_json (h_jku h) /\ jget "kid" j = opt_str_json (h_kid h) /\ jget "x5u" j = opt_str_json (h_x5u h) /\
  jget "x5c" j = opt_list_json (h_x5c h) /\ jget "x5t" j = opt_str_json (h_x5t h) /\
  jget "x5t_s256" j = opt_str_json (h_x5t_s256 h) /\ jget "crit" j = opt_list_json (h_crit h) /\
  (forall k, ~ In k ["alg"; "typ"; "cty"; "jku"; "kid"; "x5u"; "x5c"; "x5t"; "x5t_s256"; "crit"] -> jget k j = JNull).
Proof. exact header_roundtrip. Qed.
Print Assumptions C16_header_roundtrip.

(* decode hands back the header the token carries (as parsed), together with acceptance (C04) *)
Theorem C16_decode_returns_parsed_header :
  forall W token v hdr payload, decode_model W token v = Val (hdr, payload) -> jw_parse W token = Some (hdr, payload).
Proof. intros W token v hdr payload H. apply C11Proofs.decode_model_iff in H. tauto. Qed.
Print Assumptions C16_decode_returns_parsed_header.
