(* C04 - Only the exact issuer-signed JWT, the right key and the configured algorithm verify. *)
From Coq Require Import List String Ascii Bool Arith NArith.
Import ListNotations.
Require Import SDJ.Json SDJ.Wire SDJ.Model2 SDJ.Out SDJ.Restore2 SDJ.Split SDJ.SplitM SDJ.Verify SDJ.Jwt SDJ.C04Proofs.
Local Open Scope string_scope.

(* decode accepts exactly when: the token parses, its header algorithm is the configured one, the key is
   of that algorithm's family, the signature oracle accepts the token under that algorithm, the payload is
   an object and the policy's claim checks hold *)
Theorem C04_accept_iff :
  forall W token v hdr payload,
  decode_model W token v = Val (hdr, payload) <->
  jw_parse W token = Some (hdr, payload) /\
  exists a claims, jalg_of_name (jstr_or_empty_ (jget "alg" hdr)) = Some a /\ jalg_eqb a (v_alg v) = true /\
    family_ok (jw_family W) a = true /\ jw_sig_ok W token a = true /\ payload = JObj claims /\
    validate claims (build_validation v) (jw_now W) = Val tt.
Proof. exact C11Proofs.decode_model_iff. Qed.
Print Assumptions C04_accept_iff.

(* with an ideal signature scheme - only the exact issued token verifies under this key, and only under the
   algorithm it was signed with - nothing else is accepted, whatever the policy *)
Theorem C04_only_exact :
  forall W tok0 A,
  (forall t a, jw_sig_ok W t a = true -> t = tok0 /\ a = A) ->
  forall token v r, decode_model W token v = Val r -> token = tok0 /\ v_alg v = A /\ family_ok (jw_family W) A = true.
Proof. exact decode_only_exact. Qed.
Print Assumptions C04_only_exact.

Theorem C04_key_families :
  forall k a, family_ok k a = true <->
  (k = KSecret /\ In a [HS256; HS384; HS512]) \/ (k = KRsa /\ In a [RS256; RS384; RS512; PS256; PS384; PS512]) \/
  (k = KEc /\ In a [ES256; ES256K; ES384; ES512]).
Proof. exact family_table. Qed.
Print Assumptions C04_key_families.

(* holder and verifier decode the first '~'-segment before touching anything else *)
Theorem C04_holder_decodes_first :
  forall O token, (forall jwt ds kb, sd_jwt_parts token = (jwt, ds, kb) -> o_jwt O jwt = Fail) -> holder_verify O token = Fail.
Proof. exact holder_decodes_first. Qed.
Print Assumptions C04_holder_decodes_first.

Theorem C04_verifier_decodes_first :
  forall O token kbpol, (forall jwt ds kb, sd_jwt_parts token = (jwt, ds, kb) -> o_jwt O jwt = Fail) -> verifier_verify O token kbpol = Fail.
Proof. exact verifier_decodes_first. Qed.
Print Assumptions C04_verifier_decodes_first.
