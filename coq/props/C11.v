(* C11 - Validation policy: builder steps independent, every configured check enforced. *)
From Coq Require Import List String Ascii Bool Arith NArith.
Import ListNotations.
From Coq Require Import Permutation.
Require Import SDJ.Json SDJ.Wire SDJ.Model2 SDJ.Out SDJ.Jwt SDJ.C11Proofs SDJ.C11Order.
Local Open Scope string_scope.

Theorem C11_frame :
  forall v s,
  (named s <> FRequired -> v_required (step v s) = v_required v) /\
  (named s <> FLeeway -> v_leeway (step v s) = v_leeway v) /\
  (named s <> FExp -> v_exp (step v s) = v_exp v) /\
  v_nbf (step v s) = v_nbf v /\
  v_validate_aud (step v s) = v_validate_aud v /\
  (named s <> FAud -> v_aud (step v s) = v_aud v) /\
  (named s <> FIss -> v_iss (step v s) = v_iss v) /\
  (named s <> FSub -> v_sub (step v s) = v_sub v) /\
  (named s <> FAlg -> v_alg (step v s) = v_alg v).
Proof. exact step_frame. Qed.
Print Assumptions C11_frame.

Theorem C11_commute : forall v a b, named a <> named b -> step (step v a) b = step (step v b) a.
Proof. exact step_commute. Qed.
Print Assumptions C11_commute.

(* "the resulting policy does not depend on the order in which steps are applied": any permutation of a
   sequence of builder steps that names every setting at most once builds the same policy ... *)
Theorem C11_order_irrelevant :
  forall l1 l2, Permutation l1 l2 -> NoDup (map named l1) -> forall v, run_steps l1 v = run_steps l2 v.
Proof. exact steps_order_irrelevant. Qed.
Print Assumptions C11_order_irrelevant.

(* ... and with_required_claim may be repeated (it adds to a set): on a policy whose required-claims set is a
   set (every policy reachable from Validation::new is: policy_ok_new, run_steps_policy_ok) any permutation of a
   sequence in which every OTHER setting is named at most once builds the same policy *)
Theorem C11_order_irrelevant_required_sets :
  forall l1 l2, Permutation l1 l2 -> others_once l1 -> forall v, policy_ok v -> run_steps l1 v = run_steps l2 v.
Proof. exact steps_order_irrelevant_sets. Qed.
Print Assumptions C11_order_irrelevant_required_sets.

Theorem C11_reachable_policies_are_sets :
  forall a l, policy_ok (run_steps l (validation_new a)).
Proof. intros a l. apply run_steps_policy_ok. exact (policy_ok_new a). Qed.
Print Assumptions C11_reachable_policies_are_sets.

Theorem C11_forward :
  forall v,
  jo_algs (build_validation v) = [v_alg v] /\ jo_leeway (build_validation v) = v_leeway v /\
  jo_exp (build_validation v) = v_exp v /\ jo_nbf (build_validation v) = v_nbf v /\
  jo_auds (build_validation v) = v_aud v /\ jo_iss (build_validation v) = v_iss v /\
  jo_sub (build_validation v) = v_sub v /\ jo_required (build_validation v) = v_required v.
Proof. exact build_validation_forwards. Qed.
Print Assumptions C11_forward.

(* enforcement, for claims whose time values do not make the dependency's u64 arithmetic overflow *)
Theorem C11_enforce :
  forall claims o now,
  (forall t n, obj_get "exp" claims = Some t -> as_u64 t = Some n -> (n + jo_leeway o <= u64_max)%N) ->
  (forall t n, obj_get "nbf" claims = Some t -> as_u64 t = Some n -> (jo_leeway o <= n)%N) ->
  (validate claims o now = Val tt <->
   exp_holds claims o now /\ nbf_holds claims o now /\ str_holds claims "iss" (jo_iss o) /\
   str_holds claims "sub" (jo_sub o) /\ aud_holds claims (jo_auds o) /\ required_holds claims (jo_required o)).
Proof. exact validate_iff. Qed.
Print Assumptions C11_enforce.

Theorem C11_decode_accepts_only :
  forall W token v hdr payload,
  decode_model W token v = Val (hdr, payload) ->
  jw_parse W token = Some (hdr, payload) /\
  exists a claims, jalg_of_name (jstr_or_empty_ (jget "alg" hdr)) = Some a /\ jalg_eqb a (v_alg v) = true /\
    family_ok (jw_family W) a = true /\ jw_sig_ok W token a = true /\ payload = JObj claims /\
    validate claims (build_validation v) (jw_now W) = Val tt.
Proof. exact (fun W token v hdr payload => proj1 (decode_model_iff W token v hdr payload)). Qed.
Print Assumptions C11_decode_accepts_only.

(* finding F7 (repaired): the pinned without_expiry reset the other settings *)
Theorem C11_pinned_without_expiry_refuted : exists v, v_alg (step_pinned v SWithoutExpiry) <> v_alg v.
Proof. exact step_pinned_refuted. Qed.
Print Assumptions C11_pinned_without_expiry_refuted.
