(* Member names in order (slt): obj_insert and obj_get on a sorted member list cut at the place of the key. *)
From Coq Require Import List String Sorting.Sorted OrderedTypeEx.
Import ListNotations.
Require Import SDJ.Json SDJ.Model2.
Local Open Scope string_scope.

Definition slt (a b : string) : Prop := String.compare a b = Lt.
Lemma slt_trans a b c : slt a b -> slt b c -> slt a c.
Proof. unfold slt. rewrite !String_as_OT.cmp_lt. apply String_as_OT.lt_trans. Qed.
Lemma slt_irrefl a : ~ slt a a.
Proof. unfold slt. rewrite String_as_OT.cmp_lt. intros Hl. exact (String_as_OT.lt_not_eq _ _ Hl eq_refl). Qed.
Lemma compare_refl_eq k : String.compare k k = Eq.
Proof. apply String_as_OT.cmp_eq. reflexivity. Qed.
Lemma slt_gt a b : slt a b -> String.compare b a = Gt.
Proof. unfold slt. intros Hl. rewrite String.compare_antisym, Hl. reflexivity. Qed.

Lemma slt_cases a b : slt a b \/ a = b \/ slt b a.
Proof.
  unfold slt. destruct (String.compare a b) eqn:E; [right; left; apply String.compare_eq_iff, E|left; reflexivity|].
  right. right. rewrite String.compare_antisym, E. reflexivity.
Qed.

Lemma obj_insert_mid (pre post : list (string * json)) k v :
  Forall (fun kv => slt (fst kv) k) pre -> Forall (fun kv => slt k (fst kv)) post ->
  obj_insert k v (pre ++ post) = (pre ++ (k, v) :: post)%list.
Proof.
  intros Hpre Hpost. induction Hpre as [|[k' v'] r Hk _ IH]; cbn.
  - destruct post as [|[k2 v2] post']; [reflexivity|].
    inversion Hpost as [|? ? Hk2 _]; subst. cbn in Hk2. cbn. unfold slt in Hk2. rewrite Hk2. reflexivity.
  - cbn in Hk. rewrite (slt_gt _ _ Hk). rewrite IH. reflexivity.
Qed.

Lemma obj_get_none k (kvs : list (string * json)) : ~ In k (map fst kvs) -> obj_get k kvs = None.
Proof.
  induction kvs as [|[k' v'] r IH]; cbn; [reflexivity|]. intros Hn.
  destruct (String.eqb_spec k k'); [exfalso; apply Hn; left; congruence|]. apply IH. tauto.
Qed.

Lemma obj_get_mid (pre post : list (string * json)) k :
  Forall (fun kv => slt (fst kv) k) pre -> Forall (fun kv => slt k (fst kv)) post -> obj_get k (pre ++ post) = None.
Proof.
  intros Hpre Hpost. apply obj_get_none. rewrite map_app, in_app_iff, !in_map_iff. rewrite Forall_forall in Hpre, Hpost.
  intros [[kv [<- Hkv]]|[kv [<- Hkv]]]; [apply Hpre in Hkv|apply Hpost in Hkv]; exact (slt_irrefl _ Hkv).
Qed.

Lemma obj_get_unique k v (kvs : list (string * json)) : NoDup (map fst kvs) -> In (k, v) kvs -> obj_get k kvs = Some v.
Proof.
  induction kvs as [|[k' v'] r IH]; cbn; [intros _ []|]. intros Hnd [Hq|Hin].
  - injection Hq as -> ->. rewrite String.eqb_refl. reflexivity.
  - inversion Hnd as [|? ? Hni Hnd']; subst.
    destruct (String.eqb_spec k k') as [->|]; [exfalso; apply Hni; apply in_map_iff; exists (k', v); auto|].
    auto.
Qed.

Lemma ssorted_split {A} (R : A -> A -> Prop) l1 x l2 :
  StronglySorted R (l1 ++ x :: l2) -> Forall (fun y => R y x) l1 /\ Forall (R x) l2.
Proof.
  induction l1 as [|y r IH]; cbn; intros Hs.
  - apply StronglySorted_inv in Hs as [_ Hf]. split; [constructor|exact Hf].
  - apply StronglySorted_inv in Hs as [Hs Hf]. destruct (IH Hs) as [H1 H2]. split; [|exact H2].
    constructor; [|exact H1]. rewrite Forall_forall in Hf. apply Hf. apply in_or_app. right. left. reflexivity.
Qed.

Lemma ssorted_nodup l : StronglySorted slt l -> NoDup l.
Proof.
  induction l as [|x r IH]; intros Hs; [constructor|].
  apply StronglySorted_inv in Hs as [Hs Hf]. constructor; [|auto].
  intros Hin. rewrite Forall_forall in Hf. exact (slt_irrefl _ (Hf _ Hin)).
Qed.

Lemma fold_insert_sorted : forall (l acc : list (string * json)),
  StronglySorted slt (map fst (acc ++ l)) ->
  fold_left (fun a kv => obj_insert (fst kv) (snd kv) a) l acc = (acc ++ l)%list.
Proof.
  induction l as [|[k v] r IH]; intros acc Hs; [rewrite app_nil_r; reflexivity|].
  cbn [fold_left fst snd]. pose proof (obj_insert_mid acc [] k v) as Hlast. rewrite app_nil_r in Hlast. rewrite Hlast.
  - rewrite IH.
    + rewrite <- app_assoc. reflexivity.
    + rewrite <- app_assoc. exact Hs.
  - rewrite map_app in Hs. apply ssorted_split in Hs as [Hlt _]. apply Forall_map in Hlt. exact Hlt.
  - constructor.
Qed.
