(* Sessions on one Holder object and on one Issuer object (C02 C06 C09 C14): the objects are state machines, the
   operations may be interleaved in any order and repeated, and what a build() / encode() returns depends on the
   state in a way that can be said in one line:
   - the k-th presentation built on a Holder is the presentation for ALL redactions made before it (whether before or
     after earlier builds) and for the key-binding parameters supplied LAST; building changes nothing;
   - every encode() on an Issuer is the issuance for the configuration in force at that moment; encoding changes nothing,
     so a repeated encode() with fresh random choices is again an issuance of the same claims and paths. *)
From Coq Require Import List String ZArith.
Import ListNotations.
Require Import SDJ.Json SDJ.Model2 SDJ.Out SDJ.Verify SDJ.Issuer2.
Local Open Scope string_scope.

(* Both objects are machines of one shape: an operation changes the state and may return a result. *)
Section Machine.
Context {St Op Res : Type} (step : St -> Op -> St * option Res).

Fixpoint run (s : St) (ops : list Op) : St * list Res :=
  match ops with
  | [] => (s, [])
  | o :: r => let '(s1, out1) := step s o in
              let '(s2, outs) := run s1 r in
              (s2, match out1 with Some x => x :: outs | None => outs end)
  end.

Lemma run_app : forall a b s,
  run s (a ++ b) = let '(s1, outs1) := run s a in let '(s2, outs2) := run s1 b in (s2, (outs1 ++ outs2)%list).
Proof.
  induction a as [|o a IH]; intros b s; cbn [app run].
  - destruct (run s b); reflexivity.
  - destruct (step s o) as [s1 out1]. rewrite IH.
    destruct (run s1 a) as [s2 outs1]. destruct (run s2 b) as [s3 outs2]. destruct out1; reflexivity.
Qed.

Lemma run_fst_cons s o r : fst (run s (o :: r)) = fst (run (fst (step s o)) r).
Proof. cbn [run]. destruct (step s o) as [s1 out1]. cbn [fst]. destruct (run s1 r). reflexivity. Qed.

Lemma run_skip (keep : Op -> bool) :
  (forall s o, keep o = false -> fst (step s o) = s) ->
  forall ops s, fst (run s ops) = fst (run s (filter keep ops)).
Proof.
  intros Hskip. induction ops as [|o r IH]; intros s; [reflexivity|]. cbn [filter].
  destruct (keep o) eqn:Ek; rewrite !run_fst_cons; [apply IH|]. rewrite (Hskip s o Ek). apply IH.
Qed.
End Machine.

Inductive hop := HRedact (path : string) | HKeyBinding (aud : string) (alg : json) | HBuild (E : build_env).

Definition hstep (O : oracles) (h : holder) (o : hop) : holder * option (out string) :=
  match o with
  | HRedact p => (holder_redact h p, None)
  | HKeyBinding aud alg => (holder_key_binding h aud alg, None)
  | HBuild E => (h, Some (holder_build O E h))
  end.

Fixpoint hrun (O : oracles) (h : holder) (ops : list hop) : holder * list (out string) :=
  match ops with
  | [] => (h, [])
  | o :: r => let '(h1, out1) := hstep O h o in
              let '(h2, outs) := hrun O h1 r in
              (h2, match out1 with Some x => x :: outs | None => outs end)
  end.

Definition redactions (ops : list hop) : list string :=
  flat_map (fun o => match o with HRedact p => [p] | _ => [] end) ops.
Definition last_kb (start : option (string * json)) (ops : list hop) : option (string * json) :=
  fold_left (fun acc o => match o with HKeyBinding aud alg => Some (aud, alg) | _ => acc end) ops start.

Lemma hrun_run O : forall ops h, hrun O h ops = run (hstep O) h ops.
Proof. induction ops as [|o r IH]; intros h; cbn [hrun run]; [reflexivity|]. destruct (hstep O h o). rewrite IH. reflexivity. Qed.

Lemma hrun_state O : forall ops h,
  fst (hrun O h ops) = {| h_jwt := h_jwt h; h_redacted := (h_redacted h ++ redactions ops)%list;
                          h_paths := h_paths h; h_kb := last_kb (h_kb h) ops |}.
Proof.
  induction ops as [|o r IH]; intros h.
  - cbn. rewrite app_nil_r. destruct h; reflexivity.
  - rewrite hrun_run, run_fst_cons, <- hrun_run, IH.
    destruct o; cbn [hstep fst holder_redact holder_key_binding h_jwt h_redacted h_paths h_kb redactions flat_map last_kb fold_left];
      rewrite <- ?app_assoc; reflexivity.
Qed.

(* every build of a session: the presentation of the holder state reached by the operations before it *)
Theorem session_builds O : forall pre E post h,
  exists outs_pre outs_post,
    snd (hrun O h (pre ++ HBuild E :: post)) = (outs_pre ++ holder_build O E (fst (hrun O h pre)) :: outs_post)%list /\
    outs_pre = snd (hrun O h pre).
Proof.
  intros pre E post h. rewrite !hrun_run, run_app. cbn [run hstep].
  destruct (run (hstep O) h pre) as [h1 outs1]. destruct (run (hstep O) h1 post) as [h2 outs2].
  exists outs1, outs2. split; reflexivity.
Qed.

(* ... which selects exactly the disclosures not withheld by ANY redaction made so far, earlier builds or not *)
Corollary session_build_selection O pre h :
  selected (fst (hrun O h pre)) =
  map (fun p => d_str (snd p))
      (filter (fun p => negb (withheld (h_paths h) (h_redacted h ++ redactions pre) (fst p))) (h_paths h)).
Proof. rewrite hrun_state. reflexivity. Qed.

(* builds do not count: removing them from a session changes neither the final state nor the later presentations *)
Definition not_build (o : hop) : bool := match o with HBuild _ => false | _ => true end.
Theorem builds_are_pure O ops h : fst (hrun O h ops) = fst (hrun O h (filter not_build ops)).
Proof. rewrite !hrun_run. apply run_skip. intros s [] Hk; (discriminate || reflexivity). Qed.

Record issuer := {
  i_claims : json; i_paths : list string; i_header : json; i_cnf : option json; i_decoys : option Z;
}.
Inductive iop :=
| IDisclosable (p : string) | IDecoy (n : Z) | IHeader (h : json) | IRequireKeyBinding (k : json)
| IExpires (exp : json)          (* expires_in_seconds(n): claims["exp"] = now + n, the value computed by the caller of the model *)
| IEncode (E : issue_env).

Definition set_exp_claim (claims exp : json) : json :=
  match claims with JObj kvs => JObj (obj_insert "exp" exp kvs) | c => c end.

Definition istep (s : issuer) (o : iop) : issuer * option (out (string * json * list disc)) :=
  match o with
  | IDisclosable p => ({| i_claims := i_claims s; i_paths := (i_paths s ++ [p])%list; i_header := i_header s; i_cnf := i_cnf s; i_decoys := i_decoys s |}, None)
  | IDecoy n => ({| i_claims := i_claims s; i_paths := i_paths s; i_header := i_header s; i_cnf := i_cnf s; i_decoys := Some n |}, None)
  | IHeader h => ({| i_claims := i_claims s; i_paths := i_paths s; i_header := h; i_cnf := i_cnf s; i_decoys := i_decoys s |}, None)
  | IRequireKeyBinding k => ({| i_claims := i_claims s; i_paths := i_paths s; i_header := i_header s; i_cnf := Some k; i_decoys := i_decoys s |}, None)
  | IExpires e => ({| i_claims := set_exp_claim (i_claims s) e; i_paths := i_paths s; i_header := i_header s; i_cnf := i_cnf s; i_decoys := i_decoys s |}, None)
  | IEncode E => (s, Some (issue E (i_claims s) (i_paths s) (i_decoys s) (i_cnf s) (i_header s)))
  end.

Fixpoint irun (s : issuer) (ops : list iop) : issuer * list (out (string * json * list disc)) :=
  match ops with
  | [] => (s, [])
  | o :: r => let '(s1, out1) := istep s o in
              let '(s2, outs) := irun s1 r in
              (s2, match out1 with Some x => x :: outs | None => outs end)
  end.

Definition not_encode (o : iop) : bool := match o with IEncode _ => false | _ => true end.

Lemma irun_run : forall ops s, irun s ops = run istep s ops.
Proof. induction ops as [|o r IH]; intros s; cbn [irun run]; [reflexivity|]. destruct (istep s o). rewrite IH. reflexivity. Qed.

(* encoding does not change the issuer object: the configuration after a session is that of its builder calls *)
Theorem encode_is_pure : forall ops s, fst (irun s ops) = fst (irun s (filter not_encode ops)).
Proof. intros ops s. rewrite !irun_run. apply run_skip. intros s' [] Hk; (discriminate || reflexivity). Qed.

(* every encode of a session is the issuance for the configuration in force at that moment *)
Theorem session_encodes : forall pre E post s,
  exists outs_pre outs_post,
    snd (irun s (pre ++ IEncode E :: post)) =
      (outs_pre ++ (let c := fst (irun s pre) in issue E (i_claims c) (i_paths c) (i_decoys c) (i_cnf c) (i_header c)) :: outs_post)%list.
Proof.
  intros pre E post s. cbv zeta. rewrite (irun_run pre), (irun_run (pre ++ _)), run_app. cbn [run istep].
  destruct (run istep s pre) as [s1 outs1]. destruct (run istep s1 post) as [s2 outs2].
  exists outs1, outs2. reflexivity.
Qed.

(* in particular: two encodes with nothing but encodes between them issue the same claims, paths, decoy setting, key
   and header - each with its own random choices (E1, E2) *)
Corollary repeated_encode_same_configuration s E1 E2 :
  snd (irun s [IEncode E1; IEncode E2]) =
  [issue E1 (i_claims s) (i_paths s) (i_decoys s) (i_cnf s) (i_header s);
   issue E2 (i_claims s) (i_paths s) (i_decoys s) (i_cnf s) (i_header s)].
Proof. reflexivity. Qed.
