(* decimal rendering / parsing round trip for Wire.show_nat *)
From Coq Require Import List String Ascii Bool Arith NArith Lia.
Import ListNotations.
Require Import SDJ.Json SDJ.Wire SDJ.Issuer2.
Local Open Scope string_scope.

Lemma digit_digit_char r : (r < 10)%N -> digit (digit_char r) = Some (N.to_nat r).
Proof.
  intros Hr. unfold digit, digit_char, nat_of_ascii. rewrite N_ascii_embedding by lia.
  rewrite N2Nat.inj_add. change (N.to_nat 48) with 48.
  rewrite (proj2 (Nat.leb_le 48 _)), (proj2 (Nat.leb_le _ 57)) by lia.
  cbn [andb]. f_equal. lia.
Qed.

Lemma digit_char_nonzero r : (0 < r < 10)%N -> digit_char r <> "0"%char.
Proof.
  intros Hr E. pose proof (digit_digit_char r ltac:(lia)) as D. rewrite E in D. injection D as D. lia.
Qed.

(* how dec_of_N n comes about: a number below 10 is one digit in front of the accumulator; of any other the last
   digit goes in front of the accumulator, and the rest of the number is rendered in front of that *)
Lemma dec_of_N_ind (P : N -> string -> string -> Prop) :
  (forall n acc, (n < 10)%N -> P n acc (String (digit_char n) acc)) ->
  (forall n acc out, (n / 10 <> 0)%N -> P (n / 10)%N (String (digit_char (n mod 10)) acc) out -> P n acc out) ->
  forall n, P n "" (dec_of_N n).
Proof.
  intros Hone Hmore.
  assert (Hfuel : forall fuel n acc, (n < 2 ^ N.of_nat fuel)%N -> 0 < fuel -> P n acc (dec_of_pos_fuel fuel n acc)).
  { induction fuel as [|fuel IH]; intros n acc Hn Hf; [lia|]. cbn [dec_of_pos_fuel].
    destruct (N.eqb_spec (n / 10) 0) as [Hq|Hq].
    - apply N.div_small_iff in Hq; [|discriminate]. rewrite (N.mod_small _ _ Hq). apply Hone. exact Hq.
    - apply Hmore; [exact Hq|]. apply IH.
      + (* n / 10 <= n / 2 < 2 ^ fuel *)
        apply N.le_lt_trans with (n / 2)%N; [apply N.div_le_compat_l; lia|].
        apply N.div_lt_upper_bound; [discriminate|]. rewrite <- N.pow_succ_r', <- Nat2N.inj_succ. exact Hn.
      + destruct fuel; [|lia]. contradiction Hq. apply N.div_small. cbn in Hn. lia. }
  intros n. apply Hfuel; [|lia].
  (* the fuel of dec_of_N: n < 2 ^ (log2 n + 1) *)
  destruct n as [|p]; [cbn; lia|].
  replace (N.of_nat (S (N.to_nat (N.log2 (N.pos p))))) with (N.succ (N.log2 (N.pos p))) by lia.
  apply N.log2_spec. lia.
Qed.

Lemma all_digits_cons c r : all_digits (String c r) = (match digit c with Some _ => true | None => false end) && all_digits r.
Proof. reflexivity. Qed.

Lemma all_digits_app a b : all_digits (a ++ b) = all_digits a && all_digits b.
Proof.
  induction a as [|c r IH]; [reflexivity|]. cbn [append]. rewrite !all_digits_cons, IH, andb_assoc. reflexivity.
Qed.

Lemma dec_of_N_digits n : all_digits (dec_of_N n) = true.
Proof.
  apply (dec_of_N_ind (fun _ acc out => all_digits out = all_digits acc)).
  - intros m acc Hm. rewrite all_digits_cons, (digit_digit_char m Hm). reflexivity.
  - intros m acc out _ Hout. rewrite Hout, all_digits_cons, digit_digit_char by (apply N.mod_lt; discriminate). reflexivity.
Qed.

Lemma dec_of_N_head n : exists c t, dec_of_N n = String c t /\ (n <> 0%N -> c <> "0"%char).
Proof.
  apply (dec_of_N_ind (fun n _ out => exists c t, out = String c t /\ (n <> 0%N -> c <> "0"%char))).
  - intros m acc Hm. exists (digit_char m), acc. split; [reflexivity|]. intros Hm0. apply digit_char_nonzero. lia.
  - intros m acc out Hq (c & t & Hout & Hc). exists c, t. split; [exact Hout|]. intros _. exact (Hc Hq).
Qed.

Theorem N_of_dec_show n : N_of_dec (dec_of_N n) = Some n.
Proof.
  (* N_of_dec asks only that the string is not empty *)
  destruct (dec_of_N_head n) as (c & t & E & _). unfold N_of_dec. rewrite E, <- E.
  (* reading the digits of n rendered in front of acc is reading acc from n on *)
  apply (dec_of_N_ind (fun n acc out => N_of_dec_acc 0 out = N_of_dec_acc n acc)).
  - intros m acc Hm. cbn [N_of_dec_acc]. rewrite (digit_digit_char m Hm), N2Nat.id. reflexivity.
  - intros m acc out _ Hout. rewrite Hout. cbn [N_of_dec_acc].
    rewrite digit_digit_char by (apply N.mod_lt; discriminate). rewrite N2Nat.id, <- N.div_mod'. reflexivity.
Qed.

(* a digit is not the sign the two grammars look for in front *)
Lemma parse_usize_digits c r : all_digits (String c r) = true ->
  parse_usize (String c r) =
  match N_of_dec (String c r) with Some n => if (n <=? usize_max)%N then Some (N.to_nat n) else None | None => None end.
Proof.
  intros Hd. unfold parse_usize.
  replace (match String c r with String "+"%char r0 => r0 | _ => String c r end) with (String c r); [rewrite Hd; reflexivity|].
  destruct c as [b0 b1 b2 b3 b4 b5 b6 b7].
  destruct b0, b1, b2; try reflexivity. destruct b3, b4, b5; try reflexivity. destruct b6, b7; try reflexivity.
  discriminate Hd.
Qed.

Lemma parse_index_digits c r : all_digits (String c r) = true -> (c = "0"%char -> r = "") ->
  parse_index (String c r) = parse_usize (String c r).
Proof.
  intros Hd Hz. unfold parse_index.
  destruct c as [b0 b1 b2 b3 b4 b5 b6 b7].
  destruct b0, b1, b2; try reflexivity. all: destruct b3, b4, b5; try reflexivity. all: destruct b6, b7; try reflexivity.
  - discriminate Hd.
  - rewrite (Hz eq_refl). reflexivity.
Qed.

Theorem parse_usize_show n : (n <= usize_max)%N -> parse_usize (dec_of_N n) = Some (N.to_nat n).
Proof.
  intros Hn. destruct (dec_of_N_head n) as (c & t & E & _).
  rewrite E, parse_usize_digits, <- E by (rewrite <- E; apply dec_of_N_digits).
  rewrite N_of_dec_show. apply N.leb_le in Hn. rewrite Hn. reflexivity.
Qed.

Theorem parse_index_show n : (n <= usize_max)%N -> parse_index (dec_of_N n) = Some (N.to_nat n).
Proof.
  intros Hn. destruct (dec_of_N_head n) as (c & t & E & Hc).
  rewrite <- (parse_usize_show n Hn), E. apply parse_index_digits.
  - rewrite <- E. apply dec_of_N_digits.
  - intros ->. destruct (N.eq_dec n 0) as [->|Hn0]; [|contradiction (Hc Hn0); reflexivity].
    injection E as <-. reflexivity.
Qed.
