(* T1a.mark is Issuer1.build_disclosure carried out on the annotated tree (T1d). Its successful runs as an inductive
   relation, marks, over lists cut where the change is made, pre ++ x :: post, and the list lemmas for that form. *)
From Coq Require Import List String Ascii Bool Arith Lia Sorting.Sorted.
Import ListNotations.
Require Import SDJ.Json SDJ.Model2 SDJ.ATree SDJ.T2b SDJ.Issuer1 SDJ.T1a.
Local Open Scope string_scope.

Lemma list_set_map {A B} (f : A -> B) i x l : list_set i (f x) (map f l) = map f (list_set i x l).
Proof. revert i. induction l as [|y r IH]; intros [|i]; cbn; try reflexivity. rewrite IH. reflexivity. Qed.

Lemma list_set_mid {A} (pre post : list A) x y : list_set (List.length pre) y (pre ++ x :: post) = (pre ++ y :: post)%list.
Proof. induction pre as [|z r IH]; cbn; [reflexivity|]. rewrite IH. reflexivity. Qed.

Lemma nth_error_mid {A} (pre post : list A) x : nth_error (pre ++ x :: post) (List.length pre) = Some x.
Proof. induction pre as [|z r IH]; [reflexivity|exact IH]. Qed.

Lemma nth_error_mid_other {A} (pre post : list A) x y j : j <> List.length pre ->
  nth_error (pre ++ x :: post) j = nth_error (pre ++ y :: post) j.
Proof.
  revert j. induction pre as [|z r IH]; intros [|j] Hj; cbn in *; try reflexivity; [congruence|].
  apply IH. congruence.
Qed.

Lemma in_mid_split {A} (pre post : list A) x m : In m (pre ++ x :: post) -> m = x \/ forall y, In m (pre ++ y :: post).
Proof.
  rewrite in_app_iff. intros [Hm|[Hm|Hm]]; [right|left|right]; try (intros y; apply in_or_app); cbn; auto.
Qed.

Lemma Forall_mid_impl {A} (P Q : A -> Prop) (pre post : list A) x y :
  (forall m, P m -> Q m) -> (P x -> Q y) -> Forall P (pre ++ x :: post) -> Forall Q (pre ++ y :: post).
Proof.
  intros HPQ Hxy. rewrite !Forall_app, !Forall_cons_iff. intros (Hpre & Hx & Hpost).
  repeat split; [revert Hpre|auto|revert Hpost]; apply Forall_impl; assumption.
Qed.

Lemma find_mid {A} (pre post : list (string * A)) tok x :
  ~ In tok (map fst pre) -> find (fun m => String.eqb (fst m) tok) (pre ++ (tok, x) :: post) = Some (tok, x).
Proof.
  induction pre as [|[n y] r IH]; cbn; intros Hn.
  - rewrite String.eqb_refl. reflexivity.
  - destruct (String.eqb_spec n tok); [exfalso; apply Hn; left; assumption|]. apply IH. tauto.
Qed.

Lemma find_mid_other {A} (pre post : list (string * A)) tok n x y : tok <> n ->
  find (fun m => String.eqb (fst m) tok) (pre ++ (n, x) :: post) = find (fun m => String.eqb (fst m) tok) (pre ++ (n, y) :: post).
Proof.
  intros Hne. induction pre as [|[n' z] r IH]; cbn.
  - destruct (String.eqb_spec n tok); [congruence|reflexivity].
  - rewrite IH. reflexivity.
Qed.

Lemma obj_insert_replace (pre post : list (string * json)) k old v :
  Forall (fun kv => slt (fst kv) k) pre ->
  obj_insert k v (pre ++ (k, old) :: post) = (pre ++ (k, v) :: post)%list.
Proof.
  intros Hpre. induction Hpre as [|[k' v'] r Hk _ IH]; cbn.
  - rewrite compare_refl_eq. reflexivity.
  - cbn in Hk. rewrite (slt_gt _ _ Hk). rewrite IH. reflexivity.
Qed.

Lemma obj_remove_mid (pre post : list (string * json)) k old :
  ~ In k (map fst pre) -> obj_remove k (pre ++ (k, old) :: post) = (pre ++ post)%list.
Proof.
  induction pre as [|[k' v'] r IH]; cbn; intros Hn.
  - rewrite String.eqb_refl. reflexivity.
  - destruct (String.eqb_spec k k'); [exfalso; apply Hn; left; congruence|]. rewrite IH; [reflexivity|tauto].
Qed.

Lemma obj_get_mid_found (pre post : list (string * json)) k v :
  ~ In k (map fst pre) -> obj_get k (pre ++ (k, v) :: post) = Some v.
Proof.
  induction pre as [|[k' v'] r IH]; cbn; intros Hn.
  - rewrite String.eqb_refl. reflexivity.
  - destruct (String.eqb_spec k k'); [exfalso; apply Hn; left; congruence|]. apply IH. tauto.
Qed.

Definition around (k : string) (pre post : list (string * (mkind * atree))) : Prop :=
  Forall (fun n => slt n k) (map fst pre) /\ Forall (slt k) (map fst post).

(* a member function whose entries carry the member's own name: blinded members, projected members *)
Section Keyed.
Variable f : string * (mkind * atree) -> list (string * json).
Hypothesis key_f : forall m kv, In kv (f m) -> fst kv = fst m.

Lemma keyed_keys ms k : In k (map fst (flat_map f ms)) -> In k (map fst ms).
Proof.
  rewrite !in_map_iff. intros (kv & <- & Hkv). apply in_flat_map in Hkv as (m & Hm & Hkv).
  exists m. split; [symmetry; exact (key_f m kv Hkv)|exact Hm].
Qed.

Lemma keyed_Forall (P : string -> Prop) ms :
  Forall P (map fst ms) -> Forall (fun kv : string * json => P (fst kv)) (flat_map f ms).
Proof. intros HF. rewrite Forall_forall in *. intros kv Hkv. apply HF, keyed_keys, in_map, Hkv. Qed.

Lemma keyed_notin (P : string -> Prop) k ms : Forall P (map fst ms) -> ~ P k -> ~ In k (map fst (flat_map f ms)).
Proof. intros HF Hk Hin. rewrite Forall_forall in HF. exact (Hk (HF _ (keyed_keys _ _ Hin))). Qed.

Lemma keyed_insert k v pre post :
  around k pre post ->
  obj_insert k v (flat_map f pre ++ flat_map f post) = (flat_map f pre ++ (k, v) :: flat_map f post)%list.
Proof.
  intros [Hpre Hpost]. apply obj_insert_mid; [apply (keyed_Forall (fun n => slt n k))|apply (keyed_Forall (slt k))]; assumption.
Qed.

Lemma keyed_replace k old v pre post :
  Forall (fun n => slt n k) (map fst pre) ->
  obj_insert k v (flat_map f pre ++ (k, old) :: flat_map f post) = (flat_map f pre ++ (k, v) :: flat_map f post)%list.
Proof. intros Hpre. apply obj_insert_replace. apply (keyed_Forall (fun n => slt n k)). assumption. Qed.
End Keyed.

Section T1.
Variable H : string -> string.
Variable enc : list json -> string.
Variable parse_index : string -> option nat.
Variable parse_usize : string -> option nat.
Variable pos : string -> nat.
Notation blind := (blind H enc).
Notation dig_item := (dig_item H enc).
Notation dig_mem := (dig_mem H enc).
Notation add_sd := (add_sd pos).
Notation mark := (mark H enc parse_index parse_usize pos).
Notation target := (target parse_index parse_usize).

Definition bitem (it : ikind * atree) : json :=
  let '(k, s) := it in
  match k with IPlain => blind s | IHid salt => placeholder (dig_item salt s) | IDecoy g => placeholder g end.
Definition bmem (m : string * (mkind * atree)) : list (string * json) :=
  let '(name, (k, s)) := m in
  match k with MPlain => [(name, blind s)] | MHid _ => [] | MSd l => [(name, JArr (map JStr l))] end.
Lemma blind_arr items : blind (AArr items) = JArr (map bitem items).
Proof. reflexivity. Qed.
Lemma blind_obj mems : blind (AObj mems) = JObj (flat_map bmem mems).
Proof. reflexivity. Qed.

Lemma upd_mem_inv tok f mems mems' : upd_mem tok f mems = Some mems' ->
  exists pre x post x', mems = (pre ++ (tok, x) :: post)%list /\ mems' = (pre ++ (tok, x') :: post)%list /\
                        f x = Some x' /\ ~ In tok (map fst pre).
Proof.
  revert mems'. induction mems as [|[n x] r IH]; cbn; intros mems' Hu; [discriminate|].
  destruct (String.eqb_spec n tok) as [->|Hne].
  - destruct (f x) as [x'|] eqn:Ef; cbn in Hu; [|discriminate]. injection Hu as <-.
    exists [], x, r, x'. cbn. auto.
  - destruct (upd_mem tok f r) as [r'|] eqn:Er; cbn in Hu; [|discriminate]. injection Hu as <-.
    destruct (IH _ eq_refl) as (pre & x0 & post & x' & -> & -> & Hf & Hni).
    exists ((n, x) :: pre), x0, post, x'. cbn. repeat split; auto. intros [Hq|Hin]; [congruence|contradiction].
Qed.

Lemma upd_item_inv i f items items' : upd_item i f items = Some items' ->
  exists pre x post x', items = (pre ++ x :: post)%list /\ items' = (pre ++ x' :: post)%list /\
                        f x = Some x' /\ List.length pre = i.
Proof.
  unfold upd_item. destruct (nth_error items i) as [x|] eqn:En; [|discriminate].
  destruct (f x) as [x'|] eqn:Ef; [|discriminate]. cbn [omap]. intros [= <-].
  apply nth_error_split in En as (pre & post & -> & <-). exists pre, x, post, x'. rewrite list_set_mid. auto.
Qed.

Lemma bmem_key m kv : In kv (bmem m) -> fst kv = fst m.
Proof. destruct m as [name [[|salt|l] s]]; cbn [bmem In]; [|intros []|]; intros [<-|[]]; reflexivity. Qed.

(* What a successful mark does, read off its definition once: down the token path every node is a plain member or
   item of its parent; at the end the addressed member or item (u its subtree, k its name if it is a member) is
   hidden, and the digest of a member is entered in the _sd list of its parent. *)
Inductive marks (key : string) (salt : json) : list string -> atree -> atree -> option string -> atree -> Prop :=
| marks_item pre s post :
    parse_usize key = Some (List.length pre) ->
    marks key salt [] (AArr (pre ++ (IPlain, s) :: post)) (AArr (pre ++ (IHid salt, s) :: post)) None s
| marks_mem pre s post :
    ~ In key (map fst pre) ->
    marks key salt [] (AObj (pre ++ (key, (MPlain, s)) :: post))
                      (AObj (add_sd (dig_mem salt key s) (pre ++ (key, (MHid salt, s)) :: post))) (Some key) s
| marks_in_item tok rest pre s s' post k u :
    parse_index tok = Some (List.length pre) -> marks key salt rest s s' k u ->
    marks key salt (tok :: rest) (AArr (pre ++ (IPlain, s) :: post)) (AArr (pre ++ (IPlain, s') :: post)) k u
| marks_in_mem tok rest pre s s' post k u :
    ~ In tok (map fst pre) -> marks key salt rest s s' k u ->
    marks key salt (tok :: rest) (AObj (pre ++ (tok, (MPlain, s)) :: post)) (AObj (pre ++ (tok, (MPlain, s')) :: post)) k u.

Lemma mark_marks key salt : forall toks t t', mark toks key salt t = Some t' ->
  exists k u, target toks key t = Some (k, u) /\ marks key salt toks t t' k u.
Proof.
  induction toks as [|tok rest IH]; intros t t' Hm; (destruct t as [j | items | mems]; cbn [T1a.mark] in Hm; [discriminate| |]).
  - destruct (parse_usize key) as [i|] eqn:Ep; [|discriminate].
    destruct (upd_item i _ items) as [items'|] eqn:Eu; [|discriminate]. injection Hm as <-.
    apply upd_item_inv in Eu as (pre & [ik s] & post & x' & -> & -> & Hf & <-).
    destruct ik; try discriminate. injection Hf as <-.
    exists None, s. split; [|constructor; assumption].
    cbn [T1a.target]. rewrite Ep, nth_error_mid. reflexivity.
  - destruct (upd_mem key _ mems) as [mems'|] eqn:Eu; [|discriminate].
    apply upd_mem_inv in Eu as (pre & [mk s] & post & x' & -> & -> & Hf & Hni).
    destruct mk; try discriminate. injection Hf as <-.
    rewrite find_mid in Hm by assumption. injection Hm as <-.
    exists (Some key), s. split; [|constructor; assumption].
    cbn [T1a.target]. rewrite find_mid by assumption. reflexivity.
  - destruct (parse_index tok) as [i|] eqn:Ep; [|discriminate].
    destruct (upd_item i _ items) as [items'|] eqn:Eu; [|discriminate]. injection Hm as <-.
    apply upd_item_inv in Eu as (pre & [ik s] & post & x' & -> & -> & Hf & <-).
    destruct ik; try discriminate.
    destruct (mark rest key salt s) as [s'|] eqn:Ems; [|discriminate]. injection Hf as <-.
    destruct (IH _ _ Ems) as (k & u & Ht & HM). exists k, u. split; [|constructor; assumption].
    cbn [T1a.target]. rewrite Ep, nth_error_mid. exact Ht.
  - destruct (upd_mem tok _ mems) as [mems'|] eqn:Eu; [|discriminate]. injection Hm as <-.
    apply upd_mem_inv in Eu as (pre & [mk s] & post & x' & -> & -> & Hf & Hni).
    destruct mk; try discriminate.
    destruct (mark rest key salt s) as [s'|] eqn:Ems; [|discriminate]. injection Hf as <-.
    destruct (IH _ _ Ems) as (k & u & Ht & HM). exists k, u. split; [|constructor; assumption].
    cbn [T1a.target]. rewrite find_mid by assumption. exact Ht.
Qed.

Lemma mark_marks_target key salt toks t t' k u :
  mark toks key salt t = Some t' -> target toks key t = Some (k, u) -> marks key salt toks t t' k u.
Proof.
  intros Hm Ht. destruct (mark_marks _ _ _ _ _ Hm) as (k' & u' & Ht' & HM). rewrite Ht in Ht'. injection Ht' as <- <-. exact HM.
Qed.
End T1.
Arguments mark_marks {H enc parse_index parse_usize pos key salt toks t t'}.
Arguments mark_marks_target {H enc parse_index parse_usize pos key salt toks t t' k u}.
