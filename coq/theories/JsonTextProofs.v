(* JSON text round trip: parse (print v) = Some v for every value whose number literals are made of number characters and
   whose objects have strictly sorted keys (what serde_json Values are); with Base64.v: the whole disclosure encoding. *)
From Coq Require Import List String Ascii Bool Arith NArith Lia Sorting.Sorted.
Import ListNotations.
Require Import SDJ.Split SDJ.T2b SDJ.Restore2 SDJ.Base64Env SDJ.Json SDJ.Model2 SDJ.Base64 SDJ.JsonText.
Local Open Scope string_scope.

Lemma hex_table : forallb (fun k => match hexval (hexdigit (N.of_nat k)) with Some m => (m =? N.of_nat k)%N | None => false end) (seq 0 16) = true.
Proof. vm_compute. reflexivity. Qed.
Lemma hex_roundtrip n : (n < 16)%N -> hexval (hexdigit n) = Some n.
Proof. exact (table_below (fun n => hexval (hexdigit n)) 16 hex_table n). Qed.

Lemma ascii_of_code c n : N_of_ascii c = n -> c = ascii_of_N n.
Proof. intros <-. symmetry. apply ascii_N_embedding. Qed.

Definition cons_char (x : ascii) (o : option (string * string)) : option (string * string) :=
  match o with Some (t, rest) => Some (String x t, rest) | None => None end.

Lemma parse_str_plain c r : Ascii.eqb c quote = false -> Ascii.eqb c bslash = false -> (N_of_ascii c <? 32)%N = false ->
  parse_str (String c r) = cons_char c (parse_str r).
Proof. intros Hq Hb Hc. cbn [parse_str]. rewrite Hq, Hb, Hc. reflexivity. Qed.

Lemma parse_str_u h1 h2 h3 h4 r :
  parse_str (String bslash (String "u" (String h1 (String h2 (String h3 (String h4 r)))))) =
  match hexval h1, hexval h2, hexval h3, hexval h4, parse_str r with
  | Some a, Some b, Some c, Some d, Some (t, rest) =>
      match utf8 (((a * 16 + b) * 16 + c) * 16 + d)%N with Some u => Some (u ++ t, rest) | None => None end
  | _, _, _, _, _ => None end.
Proof. reflexivity. Qed.

(* \u00XY with XY the two hexadecimal digits of n: the code point n, one byte of UTF-8 below 128 *)
Lemma parse_str_u00 n r : (n < 128)%N ->
  parse_str (String bslash (String "u" (String "0" (String "0" (String (hexdigit (n / 16)) (String (hexdigit (n mod 16)) r)))))) =
  cons_char (ascii_of_N n) (parse_str r).
Proof.
  intros Hn. rewrite parse_str_u. change (hexval "0") with (Some 0%N).
  rewrite !hex_roundtrip by (apply N.mod_lt || apply N.div_lt_upper_bound; lia).
  change ((0 * 16 + 0) * 16 + n / 16)%N with (n / 16)%N. rewrite div_mod_join.
  unfold utf8. rewrite (proj2 (N.ltb_lt n 128) Hn).
  destruct (parse_str r) as [[t rest]|]; reflexivity.
Qed.

Lemma parse_str_esc_char c r : parse_str (esc_char c ++ r) = cons_char c (parse_str r).
Proof.
  unfold esc_char.
  destruct (Ascii.eqb c quote) eqn:Eq; [apply Ascii.eqb_eq in Eq; subst c; reflexivity|].
  destruct (Ascii.eqb c bslash) eqn:Eb; [apply Ascii.eqb_eq in Eb; subst c; reflexivity|].
  destruct (N.eqb_spec (N_of_ascii c) 8) as [E|_]; [rewrite (ascii_of_code c 8 E); reflexivity|].
  destruct (N.eqb_spec (N_of_ascii c) 12) as [E|_]; [rewrite (ascii_of_code c 12 E); reflexivity|].
  destruct (N.eqb_spec (N_of_ascii c) 10) as [E|_]; [rewrite (ascii_of_code c 10 E); reflexivity|].
  destruct (N.eqb_spec (N_of_ascii c) 13) as [E|_]; [rewrite (ascii_of_code c 13 E); reflexivity|].
  destruct (N.eqb_spec (N_of_ascii c) 9) as [E|_]; [rewrite (ascii_of_code c 9 E); reflexivity|].
  destruct (N_of_ascii c <? 32)%N eqn:Ec.
  - apply N.ltb_lt in Ec. cbn [append]. rewrite parse_str_u00 by lia. rewrite ascii_N_embedding. reflexivity.
  - apply parse_str_plain; assumption.
Qed.

Theorem parse_str_esc : forall s rest, parse_str (esc_str s ++ String quote rest) = Some (s, rest).
Proof.
  induction s as [|c r IH]; intros rest.
  - reflexivity.
  - cbn [esc_str]. rewrite append_assoc_, parse_str_esc_char, IH. reflexivity.
Qed.

Fixpoint all_num (s : string) : bool := match s with EmptyString => true | String c r => is_num_char c && all_num r end.
Definition follow_ok (rest : string) : Prop := match rest with EmptyString => True | String c _ => is_num_char c = false end.

Lemma span_num_lit : forall lit rest, all_num lit = true -> follow_ok rest -> span_num (lit ++ rest) = (lit, rest).
Proof.
  induction lit as [|c r IH]; intros rest Ha Hf.
  - cbn. destruct rest as [|d rest']; [reflexivity|]. cbn in Hf. cbn [span_num]. rewrite Hf. reflexivity.
  - cbn [all_num] in Ha. apply andb_true_iff in Ha as [Hc Hr]. cbn [append span_num]. rewrite Hc, (IH rest Hr Hf). reflexivity.
Qed.

(* the values the printer and the parser agree on *)
Inductive twf : json -> Prop :=
| twf_null : twf JNull
| twf_bool b : twf (JBool b)
| twf_num l : l <> EmptyString -> all_num l = true -> twf (JNum l)
| twf_str s : twf (JStr s)
| twf_arr xs : Forall twf xs -> twf (JArr xs)
| twf_obj kvs : StronglySorted slt (map fst kvs) -> Forall (fun kv => twf (snd kv)) kvs -> twf (JObj kvs).

Definition starts_value (c : ascii) : Prop :=
  Ascii.eqb c "]" = false /\ Ascii.eqb c "}" = false.

Lemma num_char_neq c x : is_num_char c = true -> is_num_char x = false -> Ascii.eqb c x = false.
Proof. intros Hc Hx. destruct (Ascii.eqb_spec c x) as [->|_]; [congruence|reflexivity]. Qed.

Lemma print_head v : twf v -> exists c r, print v = String c r /\ starts_value c.
Proof.
  intros Hw. destruct v as [| [|] | l | s | xs | kvs]; cbn [print print_str]; try (eexists; eexists; split; [reflexivity|split; reflexivity]).
  inversion Hw as [| | ? Hne Hall | | |]; subst. destruct l as [|c r]; [congruence|].
  exists c, r. split; [reflexivity|]. cbn [all_num] in Hall. apply andb_true_iff in Hall as [Hc _].
  split; apply (num_char_neq c _ Hc); reflexivity.
Qed.

Definition go_arr := fix go (l : list json) : string :=
  match l with
  | [] => "]"
  | [x] => print x ++ "]"
  | x :: r => print x ++ "," ++ go r end.
Definition go_obj := fix go (l : list (string * json)) : string :=
  match l with
  | [] => "}"
  | [(k, v)] => print_str k ++ ":" ++ print v ++ "}"
  | (k, v) :: r => print_str k ++ ":" ++ print v ++ "," ++ go r end.

Lemma print_arr xs : print (JArr xs) = "[" ++ go_arr xs. Proof. reflexivity. Qed.
Lemma print_obj kvs : print (JObj kvs) = "{" ++ go_obj kvs. Proof. reflexivity. Qed.

Lemma go_arr_cons x r : go_arr (x :: r) = print x ++ match r with [] => "]" | _ => "," ++ go_arr r end.
Proof. destruct r; reflexivity. Qed.
Lemma go_obj_cons k v r :
  go_obj ((k, v) :: r) = print_str k ++ ":" ++ print v ++ match r with [] => "}" | _ => "," ++ go_obj r end.
Proof. destruct r as [|[k2 v2] r']; reflexivity. Qed.

Lemma parse_val_arr f s c t : s = String c t -> Ascii.eqb c "]" = false ->
  parse_val (S f) (String "[" s) =
  match parse_elems f s with Some (xs, rest) => Some (JArr xs, rest) | None => None end.
Proof. intros -> E. cbn [parse_val]. rewrite E. reflexivity. Qed.

Lemma parse_val_obj f s t : s = String quote t ->
  parse_val (S f) (String "{" s) =
  match parse_members f s with
  | Some (kvs, rest) => Some (JObj (fold_left (fun acc kv => obj_insert (fst kv) (snd kv) acc) kvs []), rest)
  | None => None end.
Proof. intros ->. reflexivity. Qed.

Lemma go_arr_head x r rest : twf x -> exists c t, go_arr (x :: r) ++ rest = String c t /\ Ascii.eqb c "]" = false.
Proof.
  intros Hx. destruct (print_head x Hx) as (c & t & Ep & E & _).
  exists c. eexists. rewrite go_arr_cons, append_assoc_, Ep. split; [reflexivity|exact E].
Qed.

Lemma go_obj_head k v r rest : exists t, go_obj ((k, v) :: r) ++ rest = String quote t.
Proof. rewrite go_obj_cons. eexists. reflexivity. Qed.

(* the invariant of the round trip. Fuel above twice the length of the text suffices: parse_val spends one unit on a
   value, parse_elems / parse_members one more on each item, and every value has at least one character *)
Definition good (v : json) : Prop :=
  forall rest fuel, follow_ok rest -> 2 * String.length (print v ++ rest) < fuel -> parse_val fuel (print v ++ rest) = Some (v, rest).

Lemma follow_sep c r : is_num_char c = false -> follow_ok (String c r).
Proof. intros Hc. exact Hc. Qed.

Lemma fuel_spent n f : 2 * n + 1 < S f -> 2 * n < f.
Proof. lia. Qed.

Lemma fuel_suffix a b f : 2 * String.length (a ++ b) < f -> 2 * String.length b < f.
Proof. rewrite len_app. lia. Qed.

Lemma fuel_after a c b f : 2 * String.length (a ++ String c b) < f -> 2 * String.length b + 1 < f.
Proof. rewrite len_app. cbn [String.length]. lia. Qed.

Lemma elems_good : forall xs, xs <> [] -> Forall good xs -> forall rest fuel,
  2 * String.length (go_arr xs ++ rest) + 1 < fuel -> parse_elems fuel (go_arr xs ++ rest) = Some (xs, rest).
Proof.
  induction xs as [|x r IH]; intros Hne Hg rest fuel Hlen; [congruence|].
  inversion Hg as [|? ? Hx Hr]; subst.
  destruct fuel as [|f]; [lia|]. apply fuel_spent in Hlen.
  cbn [parse_elems]. rewrite go_arr_cons, append_assoc_ in Hlen |- *.
  destruct r as [|y r'].
  - rewrite (Hx ("]" ++ rest) f (follow_sep "]" rest eq_refl) Hlen). reflexivity.
  - rewrite (Hx (("," ++ go_arr (y :: r')) ++ rest) f (follow_sep "," _ eq_refl) Hlen).
    cbn [append]. rewrite Ascii.eqb_refl.
    rewrite (IH ltac:(discriminate) Hr rest f (fuel_after _ _ _ _ Hlen)). reflexivity.
Qed.

Lemma members_good : forall kvs, kvs <> [] -> Forall (fun kv => good (snd kv)) kvs -> forall rest fuel,
  2 * String.length (go_obj kvs ++ rest) + 1 < fuel -> parse_members fuel (go_obj kvs ++ rest) = Some (kvs, rest).
Proof.
  induction kvs as [|[k v] r IH]; intros Hne Hg rest fuel Hlen; [congruence|].
  inversion Hg as [|? ? Hv Hr]; subst. cbn [snd] in Hv.
  destruct fuel as [|f]; [lia|]. apply fuel_spent in Hlen.
  rewrite go_obj_cons, !append_assoc_ in Hlen |- *.
  (* the text of the value and what follows it, behind the key and the colon *)
  pose proof (fuel_suffix ":" _ _ (fuel_suffix _ _ _ Hlen)) as Hfv.
  unfold print_str. cbn [append parse_members]. rewrite append_assoc_. cbn [append].
  rewrite Ascii.eqb_refl, parse_str_esc, Ascii.eqb_refl.
  destruct r as [|[k2 v2] r']; cbn [append] in Hfv |- *.
  - rewrite (Hv _ f (follow_sep "}" rest eq_refl) Hfv). reflexivity.
  - rewrite (Hv _ f (follow_sep "," _ eq_refl) Hfv). rewrite Ascii.eqb_refl.
    rewrite (IH ltac:(discriminate) Hr rest f (fuel_after _ _ _ _ Hfv)). reflexivity.
Qed.

Theorem parse_val_print : forall v, twf v -> good v.
Proof.
  induction v as [| b | l | s | xs IH | kvs IH] using json_ind'; intros Hw rest fuel Hf Hlen;
    (destruct fuel as [|f]; [lia|]).
  - reflexivity.
  - destruct b; reflexivity.
  - inversion Hw as [| | ? Hne Hall | | |]; subst.
    destruct l as [|c r]; [congruence|]. cbn [print append parse_val].
    pose proof Hall as Hall'. cbn [all_num] in Hall'. apply andb_true_iff in Hall' as [Hc Hr].
    rewrite !(num_char_neq c _ Hc) by reflexivity. rewrite Hc.
    change (String c (r ++ rest)) with (String c r ++ rest). rewrite (span_num_lit (String c r) rest Hall Hf). reflexivity.
  - cbn [print print_str append parse_val].
    rewrite Ascii.eqb_refl, append_assoc_. cbn [append]. rewrite parse_str_esc. reflexivity.
  - inversion Hw as [| | | | ? Hall |]; subst.
    rewrite print_arr in Hlen |- *. cbn [append String.length] in Hlen |- *.
    destruct xs as [|x r]; [reflexivity|].
    assert (Hgood : Forall good (x :: r)).
    { rewrite Forall_forall in *. intros y Hy. apply IH; [exact Hy|]. apply Hall. exact Hy. }
    destruct (go_arr_head x r rest) as (c & t & Et & E); [inversion Hall; assumption|].
    rewrite (parse_val_arr f _ c t Et E), (elems_good (x :: r) ltac:(discriminate) Hgood rest f) by lia. reflexivity.
  - inversion Hw as [| | | | | ? Hs Hall]; subst.
    rewrite print_obj in Hlen |- *. cbn [append String.length] in Hlen |- *.
    destruct kvs as [|[k v] r]; [reflexivity|].
    assert (Hgood : Forall (fun kv => good (snd kv)) ((k, v) :: r)).
    { rewrite Forall_forall in *. intros y Hy. apply IH; [exact Hy|]. apply Hall. exact Hy. }
    destruct (go_obj_head k v r rest) as (t & Et).
    rewrite (parse_val_obj f _ t Et), (members_good ((k, v) :: r) ltac:(discriminate) Hgood rest f) by lia.
    rewrite (fold_insert_sorted ((k, v) :: r) []); [reflexivity|exact Hs].
Qed.

Theorem parse_print : forall v, twf v -> parse (print v) = Some v.
Proof.
  intros v Hw. unfold parse.
  pose proof (parse_val_print v Hw EmptyString (S (2 * String.length (print v))) I) as H.
  rewrite append_nil_r in H. rewrite H by lia. reflexivity.
Qed.
Print Assumptions parse_print.

(* the disclosure encoding, both layers: base64url (Base64.v) of the JSON text of the array *)
Definition ser_json (ps : list json) : string := print (JArr ps).

Theorem disclosure_text_roundtrip ps :
  Forall twf ps -> dec64 parse (enc64 ser_json ps) = DJson (JArr ps).
Proof.
  intros Hw. unfold dec64, enc64, ser_json. rewrite decode_encode. rewrite parse_print; [reflexivity|constructor; exact Hw].
Qed.
