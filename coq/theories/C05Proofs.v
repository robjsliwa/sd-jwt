(* Key binding enforcement (C05): exact acceptance conditions of verify_kb, Verifier::verify_raw and
   Holder::verify_raw. *)
From Coq Require Import List String Bool.
Import ListNotations.
Require Import SDJ.Json SDJ.Wire SDJ.Out SDJ.Split SDJ.SplitMProofs SDJ.Verify.
Local Open Scope string_scope.

Theorem verify_kb_iff O kb cnf hdr claims :
  verify_kb O kb cnf = Val (hdr, claims) <->
  exists n e, jget "kty" cnf = JStr "RSA" /\ jget "e" cnf = JStr e /\ jget "n" cnf = JStr n /\
              o_kb O kb n e = Val (hdr, claims) /\ jget "typ" hdr = JStr "kb+jwt".
Proof.
  unfold verify_kb. split.
  - intros Hv. apply match_str_val in Hv as (kty & Hk & Hv). apply if_fail_val in Hv as (Hrsa & Hv).
    apply match_str_val in Hv as (e & He & Hv). apply match_str_val in Hv as (n & Hn & Hv).
    apply obind_val in Hv as ([h c] & Ho & Hv). apply match_str_val in Hv as (t & Ht & Hv).
    destruct (String.eqb_spec t "kb+jwt") as [->|]; [|discriminate]. injection Hv as <- <-.
    apply negb_false_iff, String.eqb_eq in Hrsa. subst kty. eauto 8.
  - intros (n & e & Hk & He & Hn & Ho & Ht). rewrite Hk, He, Hn. cbn. rewrite Ho. cbn [obind]. rewrite Ht. reflexivity.
Qed.

(* the test Verify.kb_bound makes, and convertible with it *)
Definition kb_required (claims : json) : bool := negb (is_null (jget "cnf" claims)).

(* Verifier::verify_raw accepts exactly when: the issuer JWT decodes under the verifier's key and policy;
   _sd_alg names a supported algorithm; and either no key is bound and no KB-JWT is attached, or a key is
   bound, a KB-JWT is attached, a key-binding policy was supplied, the KB-JWT verifies against the bound
   key (verify_kb) and its sd_hash is a string equal to the hash, under _sd_alg, of the presentation
   without its last segment. *)
Theorem verifier_verify_raw_iff O token kbpol hdr claims ds :
  verifier_verify_raw O token kbpol = Val (hdr, claims, ds) <->
  exists jwt kb alg,
    sd_jwt_parts token = (jwt, ds, kb) /\ o_jwt O jwt = Val (hdr, claims) /\
    declared_halg claims = Some alg /\
    ( (kb_required claims = false /\ kb = None) \/
      (kb_required claims = true /\ exists k h' kc hs,
          kb = Some k /\ kbpol = true /\ verify_kb O k (jget "cnf" claims) = Val (h', kc) /\
          jget "sd_hash" kc = JStr hs /\ o_hash O alg (drop_kb token) = hs) ).
Proof.
  unfold verifier_verify_raw, kb_required. split.
  - intros Hv. apply obind_val in Hv as ([[jwt ds0] kb] & Hp & Hv). rewrite sd_jwt_parts_m_total in Hp.
    apply obind_val in Hv as ([h c] & Hj & Hv). cbv beta iota zeta in Hv.
    apply if_fail_val in Hv as (Hunbound & Hv). apply if_fail_val in Hv as (Hbound & Hv).
    apply match_some_val in Hv as (alg & Hh & Hv). apply obind_val in Hv as ([] & Hkb & [= <- <- <-]).
    exists jwt, kb, alg. split; [injection Hp as ->; reflexivity|]. split; [exact Hj|]. split; [exact Hh|].
    destruct kb as [k|]; destruct (is_null (jget "cnf" c)); try discriminate.
    + right. split; [reflexivity|]. apply if_fail_val in Hkb as (Hpol & Hkb).
      apply obind_val in Hkb as ([h' kc] & Hk & Hkb). apply match_str_val in Hkb as (hs & Hs & Hkb).
      rewrite drop_kb_m_total in Hkb. cbn [obind] in Hkb.
      destruct (String.eqb_spec (o_hash O alg (drop_kb token)) hs) as [Hq|]; [|discriminate].
      apply negb_false_iff in Hpol. eauto 10.
    + left. split; reflexivity.
  - intros (jwt & kb & alg & Hp & Hj & Hh & Hcase). rewrite sd_jwt_parts_m_total, Hp. cbn [obind].
    rewrite Hj. cbn [obind].
    destruct Hcase as [[Hn ->] | [Hn (k & h' & kc & hs & -> & -> & Hv & Hs & Hq)]].
    + apply negb_false_iff in Hn. rewrite Hn. cbn [andb negb]. rewrite Hh. reflexivity.
    + apply negb_true_iff in Hn. rewrite Hn. cbn [andb negb]. rewrite Hh. cbn [negb]. rewrite Hv. cbn [obind snd].
      rewrite Hs, drop_kb_m_total. cbn [obind]. rewrite Hq, String.eqb_refl. reflexivity.
Qed.

(* Holder::verify_raw accepts exactly unbound presentations whose JWT decodes and names a supported algorithm *)
Lemma holder_verify_raw_iff O token hdr claims ds :
  holder_verify_raw O token = Val (hdr, claims, ds) <->
  exists jwt alg, sd_jwt_parts token = (jwt, ds, None) /\ o_jwt O jwt = Val (hdr, claims) /\ declared_halg claims = Some alg.
Proof.
  unfold holder_verify_raw. split.
  - intros Hv. apply obind_val in Hv as ([[jwt ds0] [k|]] & Hp & Hv); [discriminate|]. rewrite sd_jwt_parts_m_total in Hp.
    apply obind_val in Hv as ([h c] & Hj & Hv). cbv beta iota in Hv.
    apply match_some_val in Hv as (alg & Hh & [= <- <- <-]). injection Hp as ->. eauto.
  - intros (jwt & alg & Hp & Hj & Hh). rewrite sd_jwt_parts_m_total, Hp. cbn [obind]. rewrite Hj. cbn [obind]. rewrite Hh. reflexivity.
Qed.

(* what acceptance says of the two things a caller can see beforehand: whether a key is bound, whether a KB-JWT is attached *)
Lemma accepted_kb_cases {O token kbpol jwt ds kb hdr claims r} :
  sd_jwt_parts token = (jwt, ds, kb) -> o_jwt O jwt = Val (hdr, claims) -> verifier_verify_raw O token kbpol = Val r ->
  (kb_required claims = false /\ kb = None) \/ (kb_required claims = true /\ kbpol = true /\ exists k, kb = Some k).
Proof.
  intros Hp Hj Hv. destruct r as [[h c] d]. apply verifier_verify_raw_iff in Hv as (jwt' & kb' & alg & Hp' & Hj' & _ & Hc).
  rewrite Hp in Hp'. injection Hp' as <- _ <-. rewrite Hj in Hj'. injection Hj' as <- <-.
  destruct Hc as [Hc|[Hn (k & _ & _ & _ & Hk & Hpol & _)]]; [left; exact Hc|right; eauto].
Qed.

Corollary bound_without_kb_rejected O token kbpol jwt ds hdr claims :
  sd_jwt_parts token = (jwt, ds, None) -> o_jwt O jwt = Val (hdr, claims) -> kb_required claims = true ->
  forall r, verifier_verify_raw O token kbpol <> Val r.
Proof.
  intros Hp Hj Hb r Hv. destruct (accepted_kb_cases Hp Hj Hv) as [[Hn _]|(_ & _ & k & Hk)]; congruence.
Qed.

Corollary kb_on_unbound_rejected O token kbpol jwt ds k hdr claims :
  sd_jwt_parts token = (jwt, ds, Some k) -> o_jwt O jwt = Val (hdr, claims) -> kb_required claims = false ->
  forall r, verifier_verify_raw O token kbpol <> Val r.
Proof.
  intros Hp Hj Hb r Hv. destruct (accepted_kb_cases Hp Hj Hv) as [[_ Hn]|[Hn _]]; congruence.
Qed.

Corollary no_policy_rejected O token jwt ds k hdr claims :
  sd_jwt_parts token = (jwt, ds, Some k) -> o_jwt O jwt = Val (hdr, claims) ->
  forall r, verifier_verify_raw O token false <> Val r.
Proof.
  intros Hp Hj r Hv. destruct (accepted_kb_cases Hp Hj Hv) as [[_ Hn]|(_ & Hpol & _)]; congruence.
Qed.

(* the commitment: when accepted with a KB-JWT, sd_hash is the hash of exactly drop_kb token; under an
   injective hash any other presentation prefix is rejected with that KB-JWT *)
Corollary accepted_commits O token kbpol hdr claims ds jwt k :
  verifier_verify_raw O token kbpol = Val (hdr, claims, ds) -> sd_jwt_parts token = (jwt, ds, Some k) ->
  exists h' kc alg, verify_kb O k (jget "cnf" claims) = Val (h', kc) /\
     declared_halg claims = Some alg /\ jget "sd_hash" kc = JStr (o_hash O alg (drop_kb token)).
Proof.
  intros Hv Hp. apply verifier_verify_raw_iff in Hv as (jwt' & kb & alg & Hp' & _ & Hh & Hc).
  rewrite Hp in Hp'. injection Hp' as <- <-.
  destruct Hc as [[_ Hn]|[_ (k' & h' & kc & hs & Hk & _ & Hv & Hs & Hq)]]; [discriminate|].
  injection Hk as <-. exists h', kc, alg. subst hs. repeat split; assumption.
Qed.
