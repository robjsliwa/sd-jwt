(* C14: issuing is total. *)
From Coq Require Import List String Ascii Bool Arith ZArith Lia.
Import ListNotations.
Require Import SDJ.Json SDJ.Model2 SDJ.Out SDJ.Split SDJ.Issuer1 SDJ.Issuer2 SDJ.C13Proofs.
Local Open Scope string_scope.

(* the root of the claims stays an object along the fold: a step either edits the root itself, which
   disclose_here leaves an object, or rebuilds it around an updated member *)
Lemma build_disclosure_obj E j p salt j' d : is_object j = true -> build_disclosure E j p salt = Ok (j', d) -> is_object j' = true.
Proof.
  unfold build_disclosure. destruct (parse_path p) as [[toks key]|]; [|discriminate].
  destruct j; try discriminate. intros _ Hu. unfold update_at in Hu. destruct toks as [|tok rest]; cbn in Hu.
  - unfold disclose_here in Hu. cbn in Hu. destruct (obj_get key kvs); [|discriminate]. destruct (_ || _); [discriminate|].
    destruct (obj_get "_sd" (obj_remove key kvs)) as [[]|]; try discriminate; injection Hu as <- _; reflexivity.
  - destruct (obj_get tok kvs) as [v|]; [|discriminate].
    destruct (Issuer1.update_at parse_index rest _ v) as [[v' a']|]; cbn in Hu; [|discriminate]. injection Hu as <- _. reflexivity.
Qed.

Lemma issue_fold_obj E paths salts j j' ds : is_object j = true -> issue_fold E j paths salts = Ok (j', ds) -> is_object j' = true.
Proof.
  intros Ho Hf.
  exact (proj1 (issue_fold_inv E (fun c => is_object c = true) (fun _ _ => True) (fun c p s c' d Hc Hb => conj (build_disclosure_obj E c p s c' d Hc Hb) I)
                  paths salts j j' ds Ho Hf)).
Qed.

(* Issuer::encode never panics, for any claims object, any path strings, any decoy maximum (also <= 0),
   whatever the random draws are - provided signing does not panic *)
Theorem issue_no_panic E kvs0 paths max_decoys cnf header :
  (forall h p, ie_sign E h p <> Panic) -> issue E (JObj kvs0) paths max_decoys cnf header <> Panic.
Proof.
  intros Hs. unfold issue. cbn [is_object]. unfold issue_obj. destruct (has_reserved true (JObj kvs0)); [discriminate|].
  destruct (match cnf with Some _ => jhas_ "cnf" (JObj kvs0) | None => false end); [discriminate|].
  destruct (issue_fold E (JObj kvs0) paths (ie_salts E)) as [[c1 ds]|] eqn:Ef; cbn [of_res obind]; [|discriminate].
  pose proof (issue_fold_obj E paths (ie_salts E) (JObj kvs0) c1 ds eq_refl Ef) as Ho.
  destruct c1; try discriminate.
  set (x := match max_decoys with Some m => if (0 <? m)%Z then of_res (add_decoys kvs (ie_decoys E)) else Val kvs | None => Val kvs end).
  assert (Hx : x <> Panic).
  { subst x. destruct max_decoys as [m|]; [|discriminate]. destruct (0 <? m)%Z; [|discriminate].
    destruct (add_decoys kvs (ie_decoys E)); discriminate. }
  destruct x as [kvs1| |]; cbn [obind]; [|discriminate|congruence].
  destruct (ie_sign E header _) as [jwt| |] eqn:Es; cbn [obind]; [discriminate|discriminate|]. exfalso. exact (Hs _ _ Es).
Qed.

Lemma split_path_no_slash p : contains slash p = false -> split_path p = None.
Proof. intros Hc. unfold split_path. rewrite split_no_sep by assumption. reflexivity. Qed.

Lemma build_disclosure_no_slash E claims p salt : contains slash p = false -> build_disclosure E claims p salt = Err.
Proof. intros Hc. unfold build_disclosure, parse_path. rewrite split_path_no_slash by assumption. destruct (reserved_token p); reflexivity. Qed.

Lemma issue_fold_err E : forall pre claims p post salts c ds s,
  issue_fold E claims pre salts = Ok (c, ds) ->
  nth_error salts (List.length pre) = Some s ->
  build_disclosure E c p s = Err ->
  issue_fold E claims (pre ++ p :: post) salts = Err.
Proof.
  induction pre as [|q pre IH]; intros claims p post salts c ds s Hf Hs He.
  - cbn in Hf. injection Hf as <- <-. destruct salts as [|s0 ss]; [discriminate|]. cbn in Hs. injection Hs as ->.
    cbn. rewrite He. reflexivity.
  - destruct salts as [|s0 ss]; [discriminate|]. cbn in Hf, Hs |- *.
    destruct (build_disclosure E claims q s0) as [[c1 d]|]; cbn in Hf |- *; [|discriminate].
    destruct (issue_fold E c1 pre ss) as [[c2 ds2]|] eqn:E2; cbn in Hf; [|discriminate]. injection Hf as <- <-.
    rewrite (IH c1 p post ss c2 ds2 s E2 Hs He). reflexivity.
Qed.

Lemma disclose_here_unknown_member E key salt kvs : obj_get key kvs = None -> disclose_here E key salt (JObj kvs) = Err.
Proof. intros Hn. unfold disclose_here. cbn. rewrite Hn. reflexivity. Qed.
Lemma disclose_here_out_of_range E key salt xs i : parse_usize key = Some i -> List.length xs <= i -> disclose_here E key salt (JArr xs) = Err.
Proof. intros Hp Hl. unfold disclose_here. cbn. rewrite Hp. apply nth_error_None in Hl. rewrite Hl. reflexivity. Qed.
Lemma disclose_here_non_numeric E key salt xs : parse_usize key = None -> disclose_here E key salt (JArr xs) = Err.
Proof. intros Hp. unfold disclose_here. cbn. rewrite Hp. reflexivity. Qed.
Lemma disclose_here_scalar E key salt j : (forall xs, j <> JArr xs) -> (forall kvs, j <> JObj kvs) -> disclose_here E key salt j = Err.
Proof. intros Ha Ho. unfold disclose_here. destruct j; try reflexivity; exfalso; [eapply Ha|eapply Ho]; reflexivity. Qed.

(* repair F19: claims that use a reserved name (_sd or ... anywhere, _sd_alg at the top level) are refused *)
Theorem issue_reserved_refused E claims paths max_decoys cnf header :
  has_reserved true claims = true -> issue E claims paths max_decoys cnf header = Fail.
Proof. intros Hr. unfold issue. destruct (is_object claims); [|reflexivity]. unfold issue_obj. rewrite Hr. reflexivity. Qed.

(* repair F29: claims that are not a JSON object are refused - with any paths, decoys, key binding, header *)
Theorem issue_non_object_refused E claims paths max_decoys cnf header :
  (forall kvs, claims <> JObj kvs) -> issue E claims paths max_decoys cnf header = Fail.
Proof. intros Hn. unfold issue. destruct claims; try reflexivity. exfalso. eapply Hn. reflexivity. Qed.

Theorem issue_no_panic_any E claims paths max_decoys cnf header :
  (forall h p, ie_sign E h p <> Panic) -> issue E claims paths max_decoys cnf header <> Panic.
Proof.
  intros Hs. destruct claims; try (unfold issue; cbn [is_object]; discriminate).
  apply issue_no_panic. exact Hs.
Qed.

(* repair F20: paths that lead into digest bookkeeping *)
Lemma build_disclosure_reserved_token E claims p salt : reserved_token p = true -> build_disclosure E claims p salt = Err.
Proof. intros Hr. unfold build_disclosure, parse_path. rewrite Hr. reflexivity. Qed.

Lemma disclose_here_placeholder E key salt xs i v :
  parse_usize key = Some i -> nth_error xs i = Some v -> has_dots v = true -> disclose_here E key salt (JArr xs) = Err.
Proof. intros Hp Hn Hd. unfold disclose_here. cbn. rewrite Hp, Hn, Hd. reflexivity. Qed.

(* repair F21: a cnf claim of the caller together with required key binding is refused *)
Theorem issue_own_cnf_refused E claims paths max_decoys k header :
  jhas_ "cnf" claims = true -> issue E claims paths max_decoys (Some k) header = Fail.
Proof. intros Hc. unfold issue. destruct (is_object claims); [|reflexivity]. unfold issue_obj. destruct (has_reserved true claims); [reflexivity|]. rewrite Hc. reflexivity. Qed.
