(* The hidden nodes of a tree by digest, name and blinded value (IsNode), as a list keyed by hdigs; a state that leaves
   nothing of the presented set exposed has the view of that set (view_fix). *)
From Coq Require Import List String.
Import ListNotations.
Require Import SDJ.Json SDJ.ATree SDJ.T2c SDJ.T2d SDJ.T2e.
Local Open Scope string_scope.

Section K.
Variable H : string -> string.
Variable enc : list json -> string.
Notation blind := (blind H enc).
Notation view := (view H enc).
Notation dig_item := (dig_item H enc).
Notation dig_mem := (dig_mem H enc).
Notation hdigs := (hdigs H enc).
Notation alldigs := (alldigs H enc).
Notation wf := (wf H enc).
Notation Exposed := (Exposed H enc).
Notation Visible := (Visible H enc).

Inductive IsNode (g : string) (k : option string) (v : json) : atree -> Prop :=
| in_item_here items salt s : In (IHid salt, s) items -> g = dig_item salt s -> k = None -> v = blind s -> IsNode g k v (AArr items)
| in_item_in items ik s : In (ik, s) items -> IsNode g k v s -> IsNode g k v (AArr items)
| in_mem_here mems name salt s : In (name, (MHid salt, s)) mems -> g = dig_mem salt name s -> k = Some name -> v = blind s -> IsNode g k v (AObj mems)
| in_mem_in mems name mk s : In (name, (mk, s)) mems -> IsNode g k v s -> IsNode g k v (AObj mems).

Lemma Exposed_IsNode R g k v t : Exposed R g k v t -> IsNode g k v t.
Proof. induction 1; [eapply in_item_here|eapply in_item_in|eapply in_mem_here|eapply in_mem_in]; eauto. Qed.
Lemma Visible_IsNode R g k v t : Visible R g k v t -> IsNode g k v t.
Proof. induction 1; [eapply in_item_here|eapply in_item_in|eapply in_mem_here|eapply in_mem_in]; eauto. Qed.

(* IsNode is membership in the list of hidden nodes, whose keys are hdigs t: duplicate-free keys name one node *)
Fixpoint nodes (t : atree) : list (string * (option string * json)) :=
  match t with
  | ALeaf _ => []
  | AArr items => flat_map (fun it => let '(k, s) := it in
        match k with IHid salt => (dig_item salt s, (None, blind s)) :: nodes s | _ => nodes s end) items
  | AObj mems => flat_map (fun m => let '(name, (k, s)) := m in
        match k with MHid salt => (dig_mem salt name s, (Some name, blind s)) :: nodes s | _ => nodes s end) mems
  end.

Lemma nodes_hdigs : forall t, map fst (nodes t) = hdigs t.
Proof.
  induction t as [j | items IH | mems IH] using atree_ind_in; [reflexivity| |];
    cbn [nodes ATree.hdigs]; rewrite map_flat_map; apply flat_map_ext_in'.
  - intros [k s] Hin. specialize (IH _ Hin). cbn [snd] in IH. destruct k; cbn [map fst]; rewrite IH; reflexivity.
  - intros [name [k s]] Hin. specialize (IH _ Hin). cbn [snd] in IH. destruct k; cbn [map fst]; rewrite IH; reflexivity.
Qed.

Lemma IsNode_nodes g k v t : IsNode g k v t -> In (g, (k, v)) (nodes t).
Proof.
  induction 1 as [items salt s Hin -> -> -> | items ik s Hin _ IH | mems name salt s Hin -> -> -> | mems name mk s Hin _ IH];
    cbn [nodes]; apply in_flat_map.
  - exists (IHid salt, s). split; [assumption|left; reflexivity].
  - exists (ik, s). split; [assumption|]. destruct ik; [|right|]; assumption.
  - exists (name, (MHid salt, s)). split; [assumption|left; reflexivity].
  - exists (name, (mk, s)). split; [assumption|]. destruct mk; [|right|]; assumption.
Qed.

Lemma IsNode_hdigs g k v t : IsNode g k v t -> In g (hdigs t).
Proof. intros Hn. rewrite <- nodes_hdigs. exact (in_map fst _ _ (IsNode_nodes _ _ _ _ Hn)). Qed.
Lemma Exposed_hdigs R g k v t : Exposed R g k v t -> In g (hdigs t).
Proof. intros Hex. eapply IsNode_hdigs, Exposed_IsNode, Hex. Qed.
Lemma Visible_alldigs R g k v t : Visible R g k v t -> wf t -> In g (alldigs t).
Proof. intros Hv Hw. apply hdigs_alldigs; [assumption|]. eapply IsNode_hdigs, Visible_IsNode, Hv. Qed.

Lemma IsNode_fun g : forall t k v k' v', NoDup (hdigs t) -> IsNode g k v t -> IsNode g k' v' t -> k = k' /\ v = v'.
Proof.
  intros t k v k' v' Hnd H1 H2. rewrite <- nodes_hdigs in Hnd.
  pose proof (NoDup_fst_fun _ _ _ _ Hnd (IsNode_nodes _ _ _ _ H1) (IsNode_nodes _ _ _ _ H2)) as E.
  injection E as -> ->. auto.
Qed.

(* when nothing that is presented is exposed any more, the view is the view of the presented set; what R opens besides
   digests of hidden nodes does not matter to a view (view_ext) *)
Theorem view_fix R own : forall t,
  (forall g k v, Exposed R g k v t -> own g = false) ->
  (forall g, In g (hdigs t) -> R g = true -> own g = true) ->
  view R t = view own t.
Proof.
  induction t as [j | items IH | mems IH] using atree_ind_in; intros Hex Hsub; [reflexivity| |].
  - rewrite !view_arr. f_equal. apply map_ext_in. intros [ik s] Hin. apply view_item_ext.
    + (* a hidden element is opened in R iff in own *)
      destruct ik as [|salt|g0]; cbn; [reflexivity| |reflexivity]. f_equal.
      destruct (R (dig_item salt s)) eqn:ER; symmetry.
      * apply Hsub; [apply (hdigs_arr_in _ _ _ _ _ Hin); left; reflexivity|assumption].
      * apply (Hex _ None (blind s)). eapply ex_item_here; eauto.
    + intros Hop. apply (IH _ Hin).
      * intros g k v He. apply (Hex g k v). eapply ex_item_in; eauto.
      * intros g Hg. apply Hsub, (hdigs_arr_in _ _ _ _ _ Hin), hdigs_sub_item, Hg.
  - rewrite !view_obj. f_equal. apply flat_map_ext_in'. intros [name [mk s]] Hin. apply view_mem_ext.
    + destruct mk as [|salt|l]; cbn; [reflexivity| |reflexivity]. f_equal.
      destruct (R (dig_mem salt name s)) eqn:ER; symmetry.
      * apply Hsub; [apply (hdigs_obj_in _ _ _ _ _ Hin); left; reflexivity|assumption].
      * apply (Hex _ (Some name) (blind s)). eapply ex_mem_here; eauto.
    + intros Hop. apply (IH _ Hin).
      * intros g k v He. apply (Hex g k v). eapply ex_mem_in; eauto.
      * intros g Hg. apply Hsub, (hdigs_obj_in _ _ _ _ _ Hin), hdigs_sub_mem, Hg.
Qed.
End K.
