(* What add_sd keeps and changes, member by member; marking keeps the tree well-formed. *)
From Coq Require Import List String Ascii Bool Arith Lia Sorting.Sorted Permutation.
Import ListNotations.
Require Import SDJ.Json SDJ.ATree SDJ.T2b SDJ.T2c SDJ.Issuer1 SDJ.T1a SDJ.T1b SDJ.T1c SDJ.T1d.
Local Open Scope string_scope.

Section T1f.
Variable H : string -> string.
Variable enc : list json -> string.
Variable parse_index : string -> option nat.
Variable parse_usize : string -> option nat.
Variable pos : string -> nat.
Notation add_sd := (T1a.add_sd pos).
Notation dig_mem := (dig_mem H enc).
Notation wf := (wf H enc).
Notation mem_ok := (mem_ok H enc).
Notation mark := (mark H enc parse_index parse_usize pos).

Lemma sd_of_app a b : sd_of (a ++ b) = (sd_of a ++ sd_of b)%list.
Proof. unfold sd_of. apply flat_map_app. Qed.

Lemma sd_of_swap pre post n k1 s1 k2 s2 :
  (match k1 with MSd _ => False | _ => True end) -> (match k2 with MSd _ => False | _ => True end) ->
  sd_of (pre ++ (n, (k1, s1)) :: post) = sd_of (pre ++ (n, (k2, s2)) :: post).
Proof. intros H1 H2. rewrite !sd_of_app. f_equal. unfold sd_of. cbn. destruct k1, k2; contradiction || reflexivity. Qed.

Lemma add_sd_Forall (P : string * (mkind * atree) -> Prop) g mems :
  P ("_sd", (MSd [g], ALeaf JNull)) ->
  (forall n l s, P (n, (MSd l, s)) -> P (n, (MSd (insert_at (pos g) g l), s))) ->
  Forall P mems -> Forall P (add_sd g mems).
Proof.
  intros Hnew Hext. induction 1 as [|[n [mk s]] r Hx Hr IH]; cbn [add_sd]; [repeat constructor; assumption|].
  destruct (String.compare "_sd" n).
  - constructor; [|assumption]. destruct mk; auto.
  - repeat constructor; assumption.
  - constructor; assumption.
Qed.

Lemma add_sd_names g : forall mems, Forall sd_names_ok mems -> Forall sd_names_ok (add_sd g mems).
Proof. intros mems. apply add_sd_Forall; [reflexivity|]. intros n l s Hn. exact Hn. Qed.

Lemma add_sd_keys g mems k : In k (map fst (add_sd g mems)) -> k = "_sd" \/ In k (map fst mems).
Proof.
  intros Hk. apply in_map_iff in Hk as [m [<- Hm]]. revert m Hm. apply Forall_forall.
  apply add_sd_Forall; [left; reflexivity|intros n l s Hn; exact Hn|].
  apply Forall_forall. intros m Hm. right. apply in_map. exact Hm.
Qed.

Lemma add_sd_sorted g : forall mems, StronglySorted slt (map fst mems) -> StronglySorted slt (map fst (add_sd g mems)).
Proof.
  induction mems as [|[n [mk s]] r IH]; intros Hs; cbn [add_sd].
  - cbn. constructor; constructor.
  - cbn [map fst] in Hs. apply StronglySorted_inv in Hs as [Hs Hf].
    destruct (String.compare "_sd" n) eqn:Ec.
    + cbn. constructor; assumption.
    + cbn. constructor; [constructor; assumption|]. constructor; [exact Ec|].
      rewrite Forall_forall in Hf |- *. intros k Hk. exact (slt_trans _ _ _ Ec (Hf _ Hk)).
    + cbn. constructor; [apply IH; assumption|].
      apply Forall_forall. intros k Hk. apply add_sd_keys in Hk as [->|Hk].
      * unfold slt. rewrite String.compare_antisym, Ec. reflexivity.
      * rewrite Forall_forall in Hf. auto.
Qed.

(* F is the member's share of alldigs, or of sd_of: both read an _sd member as its list *)
Lemma add_sd_lists (F : string * (mkind * atree) -> list string) g : (forall n l s, F (n, (MSd l, s)) = l) ->
  forall mems, Forall sd_names_ok mems -> Permutation (flat_map F (add_sd g mems)) (g :: flat_map F mems).
Proof.
  intros HF. induction mems as [|[n [mk s]] r IH]; intros Hn; cbn [add_sd flat_map]; [rewrite HF; reflexivity|].
  inversion Hn as [|? ? Hn1 Hn2]; subst. unfold sd_names_ok in Hn1. cbn in Hn1.
  destruct (String.compare "_sd" n) eqn:Ec; cbn [flat_map].
  - apply String.compare_eq_iff in Ec. subst n. destruct mk as [| |l]; try (exfalso; apply Hn1; reflexivity).
    rewrite !HF. exact (Permutation_app_tail _ (perm_insert_at _ g l)).
  - rewrite HF. reflexivity.
  - rewrite (IH Hn2). symmetry. apply Permutation_middle.
Qed.

(* F is the member's share of hdigs, or of proj: neither looks at the list of an _sd member *)
Lemma add_sd_flat_map_same {B} (F : string * (mkind * atree) -> list B) g :
  F ("_sd", (MSd [g], ALeaf JNull)) = [] -> (forall n l l' s, F (n, (MSd l, s)) = F (n, (MSd l', s))) ->
  forall mems, flat_map F (add_sd g mems) = flat_map F mems.
Proof.
  intros Hnew Hsd. induction mems as [|[n [mk s]] r IH]; cbn [add_sd flat_map]; [rewrite Hnew; reflexivity|].
  destruct (String.compare "_sd" n); cbn [flat_map].
  - f_equal. destruct mk; auto.
  - rewrite Hnew. reflexivity.
  - rewrite IH. reflexivity.
Qed.

Lemma add_sd_in g n mk s : forall mems, In (n, (mk, s)) mems ->
  exists mk', In (n, (mk', s)) (add_sd g mems) /\ (forall salt, mk = MHid salt -> mk' = mk).
Proof.
  induction mems as [|[n0 [mk0 s0]] r IH]; intros Hin; [destruct Hin|]. cbn [add_sd].
  destruct (String.compare "_sd" n0).
  - destruct Hin as [Hq|Hin]; [|exists mk; split; [right; assumption|reflexivity]].
    injection Hq as -> -> ->. eexists. split; [left; reflexivity|]. intros salt ->. reflexivity.
  - exists mk. split; [right; assumption|reflexivity].
  - destruct Hin as [Hq|Hin]; [exists mk; split; [left; assumption|reflexivity]|].
    destruct (IH Hin) as (mk' & Hin' & Hk). exists mk'. split; [right; assumption|assumption].
Qed.

Lemma wf_item_replace pre ik s post ik' s' :
  wf (AArr (pre ++ (ik, s) :: post)) -> wf s' -> item_ok (ik', s') -> wf (AArr (pre ++ (ik', s') :: post)).
Proof.
  intros Hw Hs' Hok'. inversion Hw as [|? Hall Hiok|]; subst.
  constructor; [revert Hall|revert Hiok]; apply Forall_mid_impl; auto.
Qed.

(* S is the member list the conditions mem_ok are read against: the new list itself when a subtree is exchanged,
   the list after add_sd when the member is hidden *)
Lemma wf_obj_mid pre n s post x' S :
  wf (AObj (pre ++ (n, (MPlain, s)) :: post)) -> wf (snd x') ->
  (forall x, In x (sd_of (pre ++ (n, (MPlain, s)) :: post)) -> In x (sd_of S)) ->
  (mem_ok S (n, (MPlain, s)) -> mem_ok S (n, x')) ->
  StronglySorted slt (map fst (pre ++ (n, x') :: post)) /\
  Forall (fun m => wf (snd (snd m))) (pre ++ (n, x') :: post) /\
  Forall (mem_ok S) (pre ++ (n, x') :: post).
Proof.
  intros Hw Hx' Hincl Hmid. inversion Hw as [| | ? Hs Hall Hok]; subst. split; [|split].
  - rewrite map_app in Hs |- *. exact Hs.
  - revert Hall. apply Forall_mid_impl; auto.
  - apply (Forall_impl _ (fun m => mem_ok_mono H enc _ S m Hincl)) in Hok. revert Hok. apply Forall_mid_impl; auto.
Qed.

Lemma wf_mem_replace pre n s post s' :
  wf (AObj (pre ++ (n, (MPlain, s)) :: post)) -> wf s' -> wf (AObj (pre ++ (n, (MPlain, s')) :: post)).
Proof.
  intros Hw Hs'.
  destruct (wf_obj_mid pre n s post (MPlain, s') (pre ++ (n, (MPlain, s')) :: post) Hw Hs') as (Hs & Hall & Hok).
  - intros x. rewrite (sd_of_swap pre post n MPlain s MPlain s' I I). exact (fun h => h).
  - exact (fun h => h).
  - constructor; assumption.
Qed.

Lemma wf_mem_hide pre n s post salt :
  wf (AObj (pre ++ (n, (MPlain, s)) :: post)) ->
  wf (AObj (add_sd (dig_mem salt n s) (pre ++ (n, (MHid salt, s)) :: post))).
Proof.
  intros Hw. set (g := dig_mem salt n s). set (mems' := (pre ++ (n, (MHid salt, s)) :: post)%list).
  assert (Hsd : forall x, In x (g :: sd_of mems') -> In x (sd_of (add_sd g mems'))).
  { intros x. apply Permutation_in. symmetry. apply add_sd_lists; [reflexivity|].
    exact (names_ok_hide _ _ _ _ salt (names_ok_of_wf H enc _ Hw)). }
  destruct (wf_obj_mid pre n s post (MHid salt, s) (add_sd g mems') Hw (wf_mem_mid H enc _ _ _ _ _ Hw)) as (Hs & Hall & Hok).
  - intros x Hx. apply Hsd. right. unfold mems'. rewrite <- (sd_of_swap pre post n MPlain s (MHid salt) s I I). exact Hx.
  - intros [Hdots Hname]. repeat split; [assumption..|]. apply Hsd. left. reflexivity.
  - constructor.
    + apply add_sd_sorted. exact Hs.
    + apply add_sd_Forall; [constructor; exact I|auto|exact Hall].
    + apply add_sd_Forall; [repeat split; discriminate|auto|exact Hok].
Qed.

Theorem mark_wf key salt : forall toks t t', wf t -> mark toks key salt t = Some t' -> wf t'.
Proof.
  intros toks t t' Hw Hm. destruct (mark_marks Hm) as (k & u & _ & HM). clear Hm.
  induction HM as [pre s post Hi | pre s post Hni | tok rest pre s s' post k u Hi HM IH | tok rest pre s s' post k u Hni HM IH].
  - exact (wf_item_replace _ _ _ _ (IHid salt) _ Hw (wf_item_mid H enc _ _ _ _ Hw) I).
  - exact (wf_mem_hide _ _ _ _ salt Hw).
  - exact (wf_item_replace _ _ _ _ IPlain _ Hw (IH (wf_item_mid H enc _ _ _ _ Hw)) I).
  - exact (wf_mem_replace _ _ _ _ _ Hw (IH (wf_mem_mid H enc _ _ _ _ _ Hw))).
Qed.
End T1f.
