(* restore1 on a view: the parts of the tree that do not hold the disclosure's digest are left alone (frame),
   so a run on an array or object is the run on the one element or member that holds it (focus). Nothing
   here depends on what that run returns. *)
From Coq Require Import List String Bool Arith Sorting.Sorted.
Import ListNotations.
Require Import SDJ.Json SDJ.Model2 SDJ.ATree SDJ.T2a SDJ.T2b SDJ.T2c SDJ.T2d SDJ.T2e.
Local Open Scope string_scope.

Section F.
Variable H : string -> string.
Variable enc : list json -> string.
Variable show_nat : nat -> string.
Notation view := (view H enc).
Notation dig_item := (dig_item H enc).
Notation dig_mem := (dig_mem H enc).
Notation alldigs := (alldigs H enc).
Notation wf := (wf H enc).
Notation mem_ok := (mem_ok H enc).
Notation vitem R := (ATree.view_item H enc (view R) R).
Notation vmem R := (ATree.view_mem H enc (view R) R).
Notation restore1 := (restore1 show_nat).
Notation adigs_item := (adigs_item H enc alldigs).
Notation adigs_mem := (adigs_mem alldigs).
Notation iopened := (iopened H enc).
Notation mopened := (mopened H enc).

Lemma restore1_view_frame n d path R s :
  wf s -> ~ In (d_digest d) (alldigs s) -> aheight s <= n ->
  restore1 n d path (view R s) = Ok (view R s, [], false).
Proof.
  intros Hw Hni Hh. apply restore1_no_occ.
  - apply sdwf_view, Hw.
  - apply not_true_is_false. intros Ho. exact (Hni (occurs_view H enc R _ s Hw Ho)).
  - exact (Nat.le_trans _ _ _ (height_view H enc R s Hw) Hh).
Qed.

Lemma arr_body_frame n d path R i it :
  wf (snd it) -> ~ In (d_digest d) (adigs_item it) -> item_h it <= n ->
  arr_body show_nat (restore1 n d) d path i (vitem R it) = Ok (vitem R it, [], false).
Proof.
  intros Hw Hni Hh.
  assert (Ho : occurs (d_digest d) (vitem R it) = false).
  { apply not_true_is_false. intros Ho. exact (Hni (occurs_vitem H enc R _ it Hw Ho)). }
  apply arr_body_no_occ; [apply sdwf_vitem, Hw|exact Ho|].
  intros p. apply restore1_no_occ; [apply sdwf_vitem, Hw|exact Ho|].
  exact (Nat.le_trans _ _ _ (height_vitem H enc R it Hw) Hh).
Qed.

(* The _sd member lists digests but shows none as a placeholder: it is left alone whatever the digest. *)
Lemma obj_body_frame n d path R mems m kv :
  wf (snd (snd m)) -> mem_ok mems m -> mem_h m <= n ->
  ((forall l, fst (snd m) <> MSd l) -> ~ In (d_digest d) (adigs_mem m)) ->
  In kv (vmem R m) -> obj_body (restore1 n d) path kv = Ok (kv, [], false).
Proof.
  intros Hw Hn Hh Hni Hkv. destruct kv as [k j]. unfold obj_body. rewrite restore1_no_occ; [reflexivity| | |].
  - pose proof (sdwf_view_mem H enc _ R mems m _ Hn (sdwf_view H enc R _ Hw) Hkv) as Hs. apply andb_true_iff in Hs. apply Hs.
  - apply not_true_is_false. intros Ho.
    assert (Hg : In (d_digest d) (adigs_mem m)).
    { apply (occurs_view_mem H enc _ R _ mems m (k, j) Hn (occurs_view H enc R _ _ Hw) Hkv). cbn [occ_mem]. rewrite Ho. apply orb_true_r. }
    destruct m as [name [[|salt|l] s]]; [apply Hni; [discriminate|exact Hg]..|].
    apply in_view_mem in Hkv as [_ Hj]. cbn [fst snd] in Hj. subst j. rewrite occurs_strs in Ho. discriminate.
  - exact (Nat.le_trans _ _ _ (height_view_mem H enc _ R m (k, j) (height_view H enc R _ Hw) Hkv) Hh).
Qed.

Lemma ssorted_vmems R (mems : list (string * (mkind * atree))) :
  StronglySorted slt (map fst mems) -> StronglySorted slt (map fst (flat_map (vmem R) mems)).
Proof.
  induction mems as [|[name [mk s]] r IH]; cbn [map flat_map]; intros Hs; [constructor|].
  apply StronglySorted_inv in Hs as [Hs Hf]. specialize (IH Hs).
  assert (Hlt : Forall (slt name) (map fst (flat_map (vmem R) r))).
  { rewrite Forall_forall in Hf |- *. intros k Hk. apply Hf, (keys_view_mems H enc (view R) R), Hk. }
  rewrite map_app.
  destruct mk as [|salt|l]; cbn; [|destruct (R _); cbn; [|assumption]|]; constructor; assumption.
Qed.

Lemma obj_get_view R mems m k j :
  wf (AObj mems) -> In m mems -> In (k, j) (vmem R m) -> obj_get k (flat_map (vmem R) mems) = Some j.
Proof.
  intros Hw Hm Hkv. apply obj_get_unique.
  - apply ssorted_nodup, ssorted_vmems, wf_obj_sorted with (1 := Hw).
  - apply in_flat_map. eauto.
Qed.

Lemma vmems_around R pre (m : string * (mkind * atree)) post :
  StronglySorted slt (map fst (pre ++ m :: post)) ->
  Forall (fun kv : string * json => slt (fst kv) (fst m)) (flat_map (vmem R) pre) /\
  Forall (fun kv : string * json => slt (fst m) (fst kv)) (flat_map (vmem R) post).
Proof.
  intros Hs. rewrite map_app in Hs. cbn [map] in Hs. apply ssorted_split in Hs as [Hlt Hgt].
  rewrite Forall_forall in Hlt, Hgt.
  split; apply Forall_forall; intros kv Hkv; apply in_flat_map in Hkv as [y [Hy Hkv]];
    apply in_view_mem in Hkv as [-> _]; [apply Hlt|apply Hgt]; apply in_map, Hy.
Qed.

Lemma in_sd_of mems g : wf (AObj mems) -> In g (sd_of mems) -> exists l s, In ("_sd", (MSd l, s)) mems /\ In g l.
Proof.
  intros Hw Hg. unfold sd_of in Hg. apply in_flat_map in Hg as [[name [[|salt|l] s]] [Hm Hg]]; try destruct Hg.
  destruct (wf_obj_in _ _ _ _ Hw Hm) as [_ (_ & -> & _)]. eauto.
Qed.

Lemma sd_get_view R mems sd : wf (AObj mems) -> obj_get "_sd" (flat_map (vmem R) mems) = Some sd ->
  exists name l s, In (name, (MSd l, s)) mems /\ sd = JArr (map JStr l).
Proof.
  intros Hw Eg. apply obj_get_in, in_flat_map in Eg as [m [Hm Hkv]].
  pose proof (proj2 (wf_obj_in _ _ _ _ Hw Hm)) as Hn.
  apply in_view_mem in Hkv as [Hk Hsd]. cbn [fst snd] in Hk, Hsd.
  destruct m as [name [[|salt|l] s]]; cbn [T2c.mem_ok fst snd] in *; [subst name; tauto..|eauto].
Qed.

Lemma sd_step_view_miss d path R mems :
  wf (AObj mems) -> (forall name l s, In (name, (MSd l, s)) mems -> ~ In (d_digest d) l) ->
  sd_step d path (flat_map (vmem R) mems) = Ok (flat_map (vmem R) mems, [], false).
Proof.
  intros Hw Hni. unfold sd_step. destruct (obj_get "_sd" (flat_map (vmem R) mems)) as [sd|] eqn:Eg; [|reflexivity].
  destruct (sd_get_view R mems sd Hw Eg) as (name & l & s & Hm & ->). cbn [sd_contains bind].
  destruct (existsb _ (map JStr l)) eqn:Ec; [|reflexivity]. apply existsb_strs in Ec. destruct (Hni _ _ _ Hm Ec).
Qed.

(* a hidden member that is not opened has no entry, and its digest is listed: its disclosure is placed by name *)
Lemma sd_step_view_here d path R pre name salt s post :
  wf (AObj (pre ++ (name, (MHid salt, s)) :: post)) ->
  d_digest d = dig_mem salt name s -> d_key d = Some name -> R (d_digest d) = false ->
  sd_step d path (flat_map (vmem R) (pre ++ (name, (MHid salt, s)) :: post)) =
  Ok ((flat_map (vmem R) pre ++ (name, d_val d) :: flat_map (vmem R) post)%list, [(format_path path name, d)], true).
Proof.
  intros Hw Hdg Hdk HRg.
  destruct (wf_obj_in _ _ _ _ Hw (in_elt _ _ _)) as [_ (_ & _ & Hsd)]. rewrite <- Hdg in Hsd.
  destruct (in_sd_of _ _ Hw Hsd) as (l & sy & Hy & Hgl).
  unfold sd_step. rewrite (obj_get_view R _ _ "_sd" (JArr (map JStr l)) Hw Hy (or_introl eq_refl)).
  cbn [sd_contains bind]. rewrite existsb_strs_in, Hdk by assumption.
  rewrite flat_map_app. cbn [flat_map ATree.view_mem]. rewrite <- Hdg, HRg. cbn [app].
  destruct (vmems_around R _ _ _ (wf_obj_sorted _ _ _ Hw)) as [Hlt Hgt]. cbn [fst] in Hlt, Hgt.
  rewrite obj_get_mid, obj_insert_mid by assumption. reflexivity.
Qed.

(* ... and when it is opened its name is taken *)
Lemma sd_step_view_taken d path R mems name salt s :
  wf (AObj mems) -> In (name, (MHid salt, s)) mems ->
  d_digest d = dig_mem salt name s -> d_key d = Some name -> R (d_digest d) = true ->
  sd_step d path (flat_map (vmem R) mems) = Err.
Proof.
  intros Hw Hin Hdg Hdk HR.
  destruct (wf_obj_in _ _ _ _ Hw Hin) as [_ (_ & _ & Hsd)]. rewrite <- Hdg in Hsd.
  destruct (in_sd_of _ _ Hw Hsd) as (l & sy & Hy & Hgl).
  unfold sd_step. rewrite (obj_get_view R _ _ "_sd" (JArr (map JStr l)) Hw Hy (or_introl eq_refl)).
  cbn [sd_contains bind]. rewrite existsb_strs_in, Hdk by assumption.
  rewrite (obj_get_view R _ _ name (view R s) Hw Hin); [reflexivity|].
  cbn [ATree.view_mem]. rewrite <- Hdg, HR. left. reflexivity.
Qed.

Lemma restore1_arr_focus n d path R pre it post :
  let t := AArr (pre ++ it :: post) in
  wf t -> NoDup (alldigs t) -> aheight t <= S n -> In (d_digest d) (adigs_item it) ->
  restore1 (S n) d path (view R t) =
  do (x', ps, b) <- arr_body show_nat (restore1 n d) d path (List.length pre) (vitem R it);
  Ok (JArr (map (vitem R) pre ++ x' :: map (vitem R) post), ps, b).
Proof.
  intros t Hw Hnd Hh Hg. subst t. cbn [Model2.restore1]. rewrite view_arr, map_app. cbn [map]. rewrite walki_focus, map_length.
  - cbn [Nat.add]. destruct (arr_body _ _ _ _ _ _) as [[[x' ps] b]|]; reflexivity.
  - intros j y' Hy'. rewrite <- map_app in Hy'. apply in_map_iff in Hy' as [y [<- Hy]].
    rewrite alldigs_arr in Hnd. apply arr_body_frame.
    + apply (wf_arr_in _ _ _ _ Hw), in_mid, Hy.
    + exact (NoDup_flat_map_other _ _ _ _ _ Hnd Hg y Hy).
    + apply (aheight_item _ _ _ Hh), in_mid, Hy.
Qed.

Lemma restore1_arr_in n d path R pre ik s post :
  let t := AArr (pre ++ (ik, s) :: post) in
  wf t -> NoDup (alldigs t) -> aheight t <= S n -> iopened R (ik, s) = Some true -> In (d_digest d) (alldigs s) ->
  restore1 (S n) d path (view R t) =
  do (x', ps, b) <- restore1 n d (format_path path (show_nat (List.length pre))) (view R s);
  Ok (JArr (map (vitem R) pre ++ x' :: map (vitem R) post), ps, b).
Proof.
  intros t Hw Hnd Hh Hop Hg. subst t. destruct (wf_arr_in _ _ _ _ Hw (in_elt _ _ _)) as [Hws Hok].
  rewrite restore1_arr_focus by (try assumption; apply (alldigs_sub_item _ _ _ Hok), Hg).
  unfold arr_body. rewrite (vitem_opened _ _ _ _ Hop), placeholder_of_view by assumption. cbn [bind snd].
  destruct (restore1 n d _ (view R s)) as [[[x' ps] b]|]; reflexivity.
Qed.

Lemma restore1_arr_here n d path R pre salt s post :
  let t := AArr (pre ++ (IHid salt, s) :: post) in
  wf t -> NoDup (alldigs t) -> aheight t <= S n ->
  d_digest d = dig_item salt s -> d_key d = None -> R (d_digest d) = false ->
  restore1 (S n) d path (view R t) =
  do (x', ps, b) <- restore1 n d (format_path path (show_nat (List.length pre))) (d_val d);
  Ok (JArr (map (vitem R) pre ++ x' :: map (vitem R) post), (format_path path (show_nat (List.length pre)), d) :: ps, true).
Proof.
  intros t Hw Hnd Hh Hdg Hdk HRg. subst t. rewrite restore1_arr_focus by (try assumption; left; symmetry; exact Hdg).
  unfold arr_body. cbn [ATree.view_item]. rewrite <- Hdg, HRg. cbn. rewrite String.eqb_refl, Hdk. cbn [bind].
  destruct (restore1 n d _ (d_val d)) as [[[x' ps] b]|]; reflexivity.
Qed.

Lemma walk_vmems_focus n d path R pre m post kv :
  wf (AObj (pre ++ m :: post)) -> aheight (AObj (pre ++ m :: post)) <= S n ->
  (forall y, In y (pre ++ post) -> (forall l, fst (snd y) <> MSd l) -> ~ In (d_digest d) (adigs_mem y)) ->
  walk (obj_body (restore1 n d) path) (flat_map (vmem R) pre ++ kv :: flat_map (vmem R) post) =
  do (kv', ps, b) <- obj_body (restore1 n d) path kv;
  Ok ((flat_map (vmem R) pre ++ kv' :: flat_map (vmem R) post)%list, ps, b).
Proof.
  intros Hw Hh Hoth. apply walk_focus. intros e He. rewrite <- flat_map_app in He. apply in_flat_map in He as [y [Hy He]].
  destruct (wf_obj_in _ _ _ _ Hw (in_mid _ _ _ _ Hy)) as [Hwy Hoky].
  apply (obj_body_frame _ _ _ R (pre ++ m :: post) y); [assumption|exact Hoky| |exact (Hoth y Hy)|assumption].
  apply (aheight_mem _ _ _ Hh), in_mid, Hy.
Qed.

Lemma restore1_obj_in n d path R pre name mk s post :
  let t := AObj (pre ++ (name, (mk, s)) :: post) in
  wf t -> NoDup (alldigs t) -> aheight t <= S n -> mopened R (name, (mk, s)) = Some true -> In (d_digest d) (alldigs s) ->
  restore1 (S n) d path (view R t) =
  do (v', ps, b) <- restore1 n d (format_path path name) (view R s);
  Ok (JObj (flat_map (vmem R) pre ++ (name, v') :: flat_map (vmem R) post), ps, b).
Proof.
  intros t Hw Hnd Hh Hop Hg. subst t. destruct (wf_obj_in _ _ _ _ Hw (in_elt _ _ _)) as [Hws Hok].
  apply (alldigs_sub_mem _ _ _ _ Hok) in Hg. rewrite alldigs_obj in Hnd.
  (* no other member holds the digest; in particular the _sd member does not list it *)
  assert (Hoth : forall y, In y (pre ++ post) -> ~ In (d_digest d) (adigs_mem y)) by (apply (NoDup_flat_map_other _ _ _ _ _ Hnd Hg)).
  cbn [Model2.restore1]. rewrite view_obj, sd_step_view_miss; [|assumption|].
  - cbn [bind]. rewrite flat_map_app. cbn [flat_map]. rewrite (vmem_opened _ _ _ _ Hop). cbn [app fst snd].
    rewrite (walk_vmems_focus n d path R pre (name, (mk, s)) post) by auto.
    unfold obj_body. destruct (restore1 n d _ (view R s)) as [[[v' ps] b]|]; reflexivity.
  - intros ny l sy Hy. apply in_elt_inv in Hy as [Hy|Hy]; [injection Hy as <- <- <-; discriminate|exact (Hoth _ Hy)].
Qed.

Lemma restore1_obj_here n d path R pre name salt s post :
  let t := AObj (pre ++ (name, (MHid salt, s)) :: post) in
  wf t -> NoDup (alldigs t) -> aheight t <= S n ->
  d_digest d = dig_mem salt name s -> d_key d = Some name -> R (d_digest d) = false ->
  restore1 (S n) d path (view R t) =
  do (v', ps, b) <- restore1 n d (format_path path name) (d_val d);
  Ok (JObj (flat_map (vmem R) pre ++ (name, v') :: flat_map (vmem R) post), (format_path path name, d) :: ps, true).
Proof.
  intros t Hw Hnd Hh Hdg Hdk HRg. subst t. cbn [Model2.restore1]. rewrite view_obj, sd_step_view_here by assumption. cbn [bind].
  rewrite (walk_vmems_focus n d path R pre (name, (MHid salt, s)) post); [|assumption|assumption|].
  - unfold obj_body. destruct (restore1 n d _ (d_val d)) as [[[v' ps] b]|]; reflexivity.
  - (* the digest is listed by the _sd member, hence by no other *)
    intros y Hy Hnsd Hgy.
    destruct (wf_obj_in _ _ _ _ Hw (in_elt _ _ _)) as [_ (_ & _ & Hsd)]. rewrite <- Hdg in Hsd.
    destruct (in_sd_of _ _ Hw Hsd) as (l & sy & Hy0 & Hgl). rewrite alldigs_obj in Hnd.
    apply (Hnsd l). rewrite <- (NoDup_flat_map_same _ _ _ _ _ Hnd Hy0 (in_mid _ _ _ _ Hy) Hgl Hgy). reflexivity.
Qed.

End F.
