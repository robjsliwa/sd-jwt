(* C15: parse_yaml on the value tree of a document built from claims and a set of tagged nodes gives back the claims
   and the JSON pointers of the tagged nodes. *)
From Coq Require Import List String Ascii Bool Arith Lia Sorting.Sorted.
Import ListNotations.
Require Import SDJ.Json SDJ.Wire SDJ.Model2 SDJ.T2b SDJ.T1e SDJ.Yaml.
Local Open Scope string_scope.

Lemma yaml_ind' (P : yaml -> Prop) :
  P YNull -> (forall b, P (YBool b)) -> (forall l, P (YNum l)) -> (forall s, P (YStr s)) ->
  (forall xs, Forall P xs -> P (YSeq xs)) ->
  (forall kvs, Forall (fun kv => P (snd kv)) kvs -> P (YMap kvs)) ->
  (forall t v, P v -> P (YTag t v)) -> forall y, P y.
Proof.
  intros Hnull Hbool Hnum Hstr Hseq Hmap Htag. fix go 1.
  intros [| b | l | s | xs | kvs | t v]; [exact Hnull|apply Hbool|apply Hnum|apply Hstr| | |apply Htag, go].
  - apply Hseq. induction xs as [|x r IH]; constructor; [apply go|exact IH].
  - apply Hmap. induction kvs as [|[k v] r IH]; constructor; [apply go|exact IH].
Qed.

Fixpoint tagfree (y : yaml) : bool :=
  match y with
  | YSeq xs => forallb tagfree xs
  | YMap kvs => forallb (fun kv => let '(k, v) := kv in tagfree k && tagfree v) kvs
  | YTag _ _ => false
  | _ => true end.

(* the two loops inside Yaml.collect, under names *)
Definition untag_item (x : yaml) : res yaml :=
  match x with
  | YTag t inner => if String.eqb t sd_tag then match inner with YStr s => Ok (YStr s) | _ => Err end else Ok x
  | _ => Ok x end.

Definition collect_items (path : list string) : nat -> list yaml -> res (list yaml * list string) :=
  fix go (i : nat) (l : list yaml) :=
    match l with
    | [] => Ok ([], [])
    | x :: rest =>
        do (x', ps) <- collect (path ++ [show_nat i]) x;
        do x'' <- untag_item x';
        do (rest', ps') <- go (S i) rest;
        Ok (x'' :: rest', (ps ++ ps')%list)
    end.

Definition collect_under (path : list string) (n : string) (k v : yaml) (rest : res (list (yaml * yaml) * list string)) :=
  do (v', ps) <- collect (path ++ [esc_tok n]) v;
  do (rest', ps') <- rest;
  Ok ((k, v') :: rest', (ps ++ ps')%list).
Definition collect_skip (k v : yaml) (rest : res (list (yaml * yaml) * list string)) :=
  do (rest', ps') <- rest; Ok ((k, v) :: rest', ps').

Definition collect_members (path : list string) : list (yaml * yaml) -> res (list (yaml * yaml) * list string) :=
  fix go (l : list (yaml * yaml)) :=
    match l with
    | [] => Ok ([], [])
    | (k, v) :: rest =>
        match k with
        | YTag t kv =>
            if String.eqb t sd_tag then
              match kv with
              | YStr ks =>
                  do (v', ps) <- collect (path ++ [esc_tok ks]) v;
                  do (rest', ps') <- go rest;
                  Ok ((YStr ks, v') :: rest', (ps ++ [render_segs (path ++ [esc_tok ks])] ++ ps')%list)
              | _ => Err end
            else match key_name k with Some n => collect_under path n k v (go rest) | None => collect_skip k v (go rest) end
        | YStr ks => collect_under path ks k v (go rest)
        | _ => match key_name k with Some n => collect_under path n k v (go rest) | None => collect_skip k v (go rest) end
        end
    end.

Lemma collect_seq path xs : collect path (YSeq xs) = do r <- collect_items path 0 xs; Ok (YSeq (fst r), snd r).
Proof. reflexivity. Qed.

Lemma collect_map path kvs : collect path (YMap kvs) = do r <- collect_members path kvs; Ok (YMap (fst r), snd r).
Proof. reflexivity. Qed.

Theorem collect_tagfree : forall y path, tagfree y = true -> collect path y = Ok (y, []).
Proof.
  induction y as [| b | l | s | xs IH | kvs IH | t v IH] using yaml_ind'; intros path Ht; try reflexivity.
  - rewrite collect_seq. cbn [tagfree] in Ht.
    assert (Hgo : forall i, collect_items path i xs = Ok (xs, [])).
    { induction IH as [|x r Hx _ IHr]; intros i; [reflexivity|].
      cbn [forallb] in Ht. apply andb_true_iff in Ht as [Htx Htr].
      cbn [collect_items]. rewrite (Hx _ Htx), (IHr Htr).
      destruct x; try discriminate Htx; reflexivity. }
    rewrite Hgo. reflexivity.
  - rewrite collect_map. cbn [tagfree] in Ht.
    assert (Hgo : collect_members path kvs = Ok (kvs, [])).
    { induction IH as [|[k v] r Hv _ IHr]; [reflexivity|].
      cbn [forallb] in Ht. apply andb_true_iff in Ht as [Htkv Htr]. apply andb_true_iff in Htkv as [Htk Htv].
      cbn [snd] in Hv. cbn [collect_members]. rewrite (IHr Htr).
      (* a key without a tag: a string or a scalar with a name (walked under it), or a collection (not walked) *)
      destruct k as [| [|] | l | ks | xs | kvs' | t kv]; try discriminate Htk;
        cbn [key_name]; unfold collect_under; rewrite ?(Hv _ Htv); reflexivity. }
    rewrite Hgo. reflexivity.
  - discriminate Ht.
Qed.

Section Tagged.
Variable marked : list string -> bool.     (* which nodes carry the !sd tag, by path segments *)

(* the value tree of the YAML document: tags on mapping keys anywhere, on sequence items that are strings *)
Fixpoint ytree (path : list string) (j : json) : yaml :=
  match j with
  | JNull => YNull | JBool b => YBool b | JNum l => YNum l | JStr s => YStr s
  | JArr xs => YSeq ((fix go (i : nat) (l : list json) : list yaml :=
        match l with
        | [] => []
        | x :: r =>
            (match x with
             | JStr s => if marked (path ++ [show_nat i]) then YTag sd_tag (YStr s) else YStr s
             | _ => ytree (path ++ [show_nat i]) x end) :: go (S i) r
        end) 0 xs)
  | JObj kvs => YMap ((fix go (l : list (string * json)) : list (yaml * yaml) :=
        match l with
        | [] => []
        | (k, v) :: r => ((if marked (path ++ [esc_tok k]) then YTag sd_tag (YStr k) else YStr k), ytree (path ++ [esc_tok k]) v) :: go r
        end) kvs)
  end.

Fixpoint yplain (j : json) : yaml :=
  match j with
  | JNull => YNull | JBool b => YBool b | JNum l => YNum l | JStr s => YStr s
  | JArr xs => YSeq (map yplain xs)
  | JObj kvs => YMap (map (fun kv => let '(k, v) := kv in (YStr k, yplain v)) kvs)
  end.

(* the JSON pointers of the tagged nodes, nested ones before the node that encloses them *)
Fixpoint epaths (path : list string) (j : json) : list string :=
  match j with
  | JArr xs => (fix go (i : nat) (l : list json) : list string :=
        match l with
        | [] => []
        | x :: r =>
            ((match x with
              | JStr _ => if marked (path ++ [show_nat i]) then [render_segs (path ++ [show_nat i])] else []
              | _ => epaths (path ++ [show_nat i]) x end) ++ go (S i) r)%list
        end) 0 xs
  | JObj kvs => (fix go (l : list (string * json)) : list string :=
        match l with
        | [] => []
        | (k, v) :: r =>
            ((epaths (path ++ [esc_tok k]) v ++ (if marked (path ++ [esc_tok k]) then [render_segs (path ++ [esc_tok k])] else [])) ++ go r)%list
        end) kvs
  | _ => [] end.

(* the loops inside ytree and epaths, under names: ytree_arr ... epaths_obj below hold by reflexivity *)
Definition ytree_items (path : list string) : nat -> list json -> list yaml :=
  fix go (i : nat) (l : list json) :=
    match l with
    | [] => []
    | x :: r =>
        (match x with
         | JStr s => if marked (path ++ [show_nat i]) then YTag sd_tag (YStr s) else YStr s
         | _ => ytree (path ++ [show_nat i]) x end) :: go (S i) r
    end.
Definition ytree_members (path : list string) : list (string * json) -> list (yaml * yaml) :=
  fix go (l : list (string * json)) :=
    match l with
    | [] => []
    | (k, v) :: r => ((if marked (path ++ [esc_tok k]) then YTag sd_tag (YStr k) else YStr k), ytree (path ++ [esc_tok k]) v) :: go r
    end.
Definition epaths_items (path : list string) : nat -> list json -> list string :=
  fix go (i : nat) (l : list json) :=
    match l with
    | [] => []
    | x :: r =>
        ((match x with
          | JStr _ => if marked (path ++ [show_nat i]) then [render_segs (path ++ [show_nat i])] else []
          | _ => epaths (path ++ [show_nat i]) x end) ++ go (S i) r)%list
    end.
Definition epaths_members (path : list string) : list (string * json) -> list string :=
  fix go (l : list (string * json)) :=
    match l with
    | [] => []
    | (k, v) :: r =>
        ((epaths (path ++ [esc_tok k]) v ++ (if marked (path ++ [esc_tok k]) then [render_segs (path ++ [esc_tok k])] else [])) ++ go r)%list
    end.

Lemma ytree_arr path xs : ytree path (JArr xs) = YSeq (ytree_items path 0 xs).
Proof. reflexivity. Qed.
Lemma ytree_obj path kvs : ytree path (JObj kvs) = YMap (ytree_members path kvs).
Proof. reflexivity. Qed.
Lemma epaths_arr path xs : epaths path (JArr xs) = epaths_items path 0 xs.
Proof. reflexivity. Qed.
Lemma epaths_obj path kvs : epaths path (JObj kvs) = epaths_members path kvs.
Proof. reflexivity. Qed.

Lemma collect_items_ytree path xs :
  Forall (fun x => forall p, collect p (ytree p x) = Ok (yplain x, epaths p x)) xs ->
  forall i, collect_items path i (ytree_items path i xs) = Ok (map yplain xs, epaths_items path i xs).
Proof.
  induction 1 as [|x r Hx _ IHr]; intros i; [reflexivity|].
  cbn [ytree_items epaths_items collect_items map]. rewrite (IHr (S i)).
  destruct x as [| | | s | |]; try (rewrite Hx; reflexivity).
  destruct (marked _); reflexivity.
Qed.

Lemma collect_members_ytree path kvs :
  Forall (fun kv => forall p, collect p (ytree p (snd kv)) = Ok (yplain (snd kv), epaths p (snd kv))) kvs ->
  collect_members path (ytree_members path kvs) =
  Ok (map (fun kv : string * json => let '(k, v) := kv in (YStr k, yplain v)) kvs, epaths_members path kvs).
Proof.
  induction 1 as [|[k v] r Hv _ IHr]; [reflexivity|]. cbn [snd] in Hv.
  cbn [ytree_members epaths_members map].
  destruct (marked (path ++ [esc_tok k])); cbn [collect_members].
  - rewrite String.eqb_refl, Hv, IHr. cbn [bind]. rewrite <- !app_assoc. reflexivity.
  - unfold collect_under. rewrite Hv, IHr. cbn [bind]. rewrite app_nil_r. reflexivity.
Qed.

Theorem collect_ytree : forall j path, collect path (ytree path j) = Ok (yplain j, epaths path j).
Proof.
  induction j as [| b | l | s | xs IH | kvs IH] using json_ind'; intros path; try reflexivity.
  - rewrite ytree_arr, collect_seq, (collect_items_ytree path xs IH). reflexivity.
  - rewrite ytree_obj, collect_map, (collect_members_ytree path kvs IH). reflexivity.
Qed.
End Tagged.

(* the two loops inside Yaml.to_json, under names *)
Definition to_json_items : list yaml -> res (list json) :=
  fix go (l : list yaml) :=
    match l with [] => Ok [] | x :: r => do j <- to_json x; do r' <- go r; Ok (j :: r') end.
Definition to_json_members : list (yaml * yaml) -> res (list (string * json)) :=
  fix go (l : list (yaml * yaml)) :=
    match l with
    | [] => Ok []
    | (YStr k, v) :: r => do j <- to_json v; do r' <- go r; Ok ((k, j) :: r')
    | (k, v) :: r => match key_name k with
                     | Some n => do j <- to_json v; do r' <- go r; Ok ((n, j) :: r')
                     | None => Err end
    end.

Lemma to_json_seq xs : to_json (YSeq xs) = do l <- to_json_items xs; Ok (JArr l).
Proof. reflexivity. Qed.
Lemma to_json_map kvs : to_json (YMap kvs) =
  if singleton_tagged_key kvs then Err else
  do l <- to_json_members kvs; Ok (JObj (fold_left (fun acc kv => obj_insert (fst kv) (snd kv) acc) l [])).
Proof. reflexivity. Qed.

Theorem to_json_yplain : forall j, jwf j -> to_json (yplain j) = Ok j.
Proof.
  intros j Hw. induction Hw as [| b | l | s | xs IH | kvs Hs IH] using jwf_ind'; try reflexivity.
  - cbn [yplain]. rewrite to_json_seq.
    assert (Hgo : to_json_items (map yplain xs) = Ok xs).
    { induction IH as [|x r [_ Hx] _ IHr]; [reflexivity|]. cbn [map to_json_items]. rewrite Hx, IHr. reflexivity. }
    rewrite Hgo. reflexivity.
  - cbn [yplain]. rewrite to_json_map.
    replace (singleton_tagged_key _) with false by (destruct kvs as [|[k v] [|[k2 v2] r]]; reflexivity).
    assert (Hgo : to_json_members (map (fun kv : string * json => let '(k, v) := kv in (YStr k, yplain v)) kvs) = Ok kvs).
    { clear Hs. induction IH as [|[k v] r [_ Hv] _ IHr]; [reflexivity|].
      cbn [snd] in Hv. cbn [map to_json_members]. rewrite Hv, IHr. reflexivity. }
    rewrite Hgo. cbn [bind]. rewrite (fold_insert_sorted kvs []); [reflexivity|exact Hs].
Qed.

(* a document built from well-formed claims has no two keys that coincide once the tags are removed: the keys of
   every object are strictly sorted, hence distinct *)
Lemma has_dup_sorted l : StronglySorted slt l -> has_dup l = false.
Proof.
  induction l as [|x r IH]; intros Hs; [reflexivity|]. inversion Hs as [|? ? Hr Hx]; subst.
  cbn [has_dup]. rewrite (IH Hr), orb_false_r.
  apply not_true_is_false. intros E. apply existsb_exists in E as [y [Hy Ey]]. apply String.eqb_eq in Ey. subst y.
  rewrite Forall_forall in Hx. exact (slt_irrefl _ (Hx _ Hy)).
Qed.

Lemma clash_ytree marked : forall j path, jwf j -> clash (ytree marked path j) = false.
Proof.
  intros j path Hw. revert path.
  induction Hw as [| b | l | s | xs IH | kvs Hs IH] using jwf_ind'; intros path; try reflexivity.
  - rewrite ytree_arr. cbn [clash]. generalize 0 as i.
    induction IH as [|x r [_ Hx] _ IHr]; intros i; [reflexivity|].
    cbn [ytree_items existsb]. rewrite (IHr (S i)), orb_false_r.
    destruct x as [| | | s | |]; try apply Hx. destruct (marked _); reflexivity.
  - rewrite ytree_obj. cbn [clash].
    (* the member names of the keys, tagged or not, are the keys of the object *)
    replace (flat_map _ (ytree_members marked path kvs)) with (map fst kvs).
    2:{ clear. induction kvs as [|[k v] r IHr]; [reflexivity|]. cbn [ytree_members flat_map map fst]. rewrite IHr.
        destruct (marked (path ++ [esc_tok k])%list); unfold member_name; cbn [stripped_name]; [rewrite String.eqb_refl|]; reflexivity. }
    rewrite (has_dup_sorted _ Hs). cbn [orb].
    clear Hs. induction IH as [|[k v] r [_ Hv] _ IHr]; [reflexivity|].
    cbn [ytree_members existsb]. rewrite IHr, orb_false_r. apply Hv.
Qed.

(* parse_yaml on the tree of a document built from well-formed claims and any set of tags: the claims come
   back, and the paths are exactly the tagged nodes, nested ones first *)
Theorem parse_yaml_tagged marked j : jwf j ->
  parse_yaml_tree (ytree marked [] j) = Ok (j, epaths marked [] j).
Proof.
  intros Hw. unfold parse_yaml_tree. rewrite (clash_ytree marked j [] Hw).
  rewrite collect_ytree. cbn [bind]. rewrite to_json_yplain by assumption. reflexivity.
Qed.

(* repairs F25 / F26 at the level of the model: a tag below a scalar key that is not a string is reported under the
   member name the conversion gives that key, and a key that collides with another one once its tag is removed is an error *)
Example tag_below_number_key :
  parse_yaml_tree (YMap [(YStr "sub", YStr "x"); (YNum "1", YMap [(YTag sd_tag (YStr "a"), YStr "b"); (YStr "c", YStr "d")])])
  = Ok (JObj [("1", JObj [("a", JStr "b"); ("c", JStr "d")]); ("sub", JStr "x")], ["/1/a"]).
Proof. reflexivity. Qed.
Example tagged_key_collides :
  parse_yaml_tree (YMap [(YTag sd_tag (YStr "a"), YMap [(YTag sd_tag (YStr "b"), YNum "1")]); (YStr "a", YNum "2")]) = Err.
Proof. reflexivity. Qed.
