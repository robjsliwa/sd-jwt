(* JSON text: the compact printer (what serde_json::to_string writes for a Value: no white space, members in map
   order, strings with the short escapes and \u00XX for the other control characters, numbers as their literal) and a
   parser for it, with the round trip parse (print v) = Some v. Numbers are literals in the model (JNum lit), so the
   theorem asks that every literal is made of number characters. *)
From Coq Require Import List String Ascii Bool Arith NArith Lia.
Import ListNotations.
Require Import SDJ.Json SDJ.Model2.
Local Open Scope string_scope.

Definition quote : ascii := """"%char.
Definition bslash : ascii := "\"%char.

Definition hexdigit (n : N) : ascii :=
  if (n <? 10)%N then ascii_of_N (48 + n) else ascii_of_N (87 + n).
Definition hexval (c : ascii) : option N :=
  let n := N_of_ascii c in
  if ((48 <=? n) && (n <=? 57))%N then Some (n - 48)%N
  else if ((97 <=? n) && (n <=? 102))%N then Some (n - 87)%N
  else if ((65 <=? n) && (n <=? 70))%N then Some (n - 55)%N
  else None.

(* one character of a string, escaped as serde_json does *)
Definition esc_char (c : ascii) : string :=
  let n := N_of_ascii c in
  if Ascii.eqb c quote then String bslash (String quote EmptyString)
  else if Ascii.eqb c bslash then String bslash (String bslash EmptyString)
  else if (n =? 8)%N then String bslash "b"
  else if (n =? 12)%N then String bslash "f"
  else if (n =? 10)%N then String bslash "n"
  else if (n =? 13)%N then String bslash "r"
  else if (n =? 9)%N then String bslash "t"
  else if (n <? 32)%N then String bslash (String "u" (String "0" (String "0" (String (hexdigit (n / 16)) (String (hexdigit (n mod 16)) EmptyString)))))
  else String c EmptyString.

Fixpoint esc_str (s : string) : string :=
  match s with EmptyString => EmptyString | String c r => esc_char c ++ esc_str r end.

Definition print_str (s : string) : string := String quote (esc_str s ++ String quote EmptyString).

Fixpoint print (j : json) : string :=
  match j with
  | JNull => "null"
  | JBool true => "true"
  | JBool false => "false"
  | JNum lit => lit
  | JStr s => print_str s
  | JArr xs =>
      "[" ++ (fix go (l : list json) : string :=
                match l with
                | [] => "]"
                | [x] => print x ++ "]"
                | x :: r => print x ++ "," ++ go r end) xs
  | JObj kvs =>
      "{" ++ (fix go (l : list (string * json)) : string :=
                match l with
                | [] => "}"
                | [(k, v)] => print_str k ++ ":" ++ print v ++ "}"
                | (k, v) :: r => print_str k ++ ":" ++ print v ++ "," ++ go r end) kvs
  end.

(* UTF-8 of a code point below 0x10000 that is not a surrogate *)
Definition utf8 (cp : N) : option string :=
  if (cp <? 128)%N then Some (String (ascii_of_N cp) EmptyString)
  else if (cp <? 2048)%N then Some (String (ascii_of_N (192 + cp / 64)) (String (ascii_of_N (128 + cp mod 64)) EmptyString))
  else if ((55296 <=? cp) && (cp <=? 57343))%N then None
  else Some (String (ascii_of_N (224 + cp / 4096)) (String (ascii_of_N (128 + (cp / 64) mod 64)) (String (ascii_of_N (128 + cp mod 64)) EmptyString))).

(* the characters after the opening quote: content and what follows the closing quote *)
Fixpoint parse_str (s : string) : option (string * string) :=
  match s with
  | EmptyString => None
  | String c r =>
      if Ascii.eqb c quote then Some (EmptyString, r)
      else if Ascii.eqb c bslash then
        match r with
        | String e r2 =>
            let simple (x : ascii) := match parse_str r2 with Some (t, rest) => Some (String x t, rest) | None => None end in
            if Ascii.eqb e quote then simple quote
            else if Ascii.eqb e bslash then simple bslash
            else if Ascii.eqb e "/" then simple "/"%char
            else if Ascii.eqb e "b" then simple (ascii_of_N 8)
            else if Ascii.eqb e "f" then simple (ascii_of_N 12)
            else if Ascii.eqb e "n" then simple (ascii_of_N 10)
            else if Ascii.eqb e "r" then simple (ascii_of_N 13)
            else if Ascii.eqb e "t" then simple (ascii_of_N 9)
            else if Ascii.eqb e "u" then
              match r2 with
              | String h1 (String h2 (String h3 (String h4 r3))) =>
                  match hexval h1, hexval h2, hexval h3, hexval h4, parse_str r3 with
                  | Some a, Some b, Some c', Some d, Some (t, rest) =>
                      match utf8 (((a * 16 + b) * 16 + c') * 16 + d)%N with
                      | Some u => Some (u ++ t, rest)
                      | None => None end
                  | _, _, _, _, _ => None end
              | _ => None end
            else None
        | EmptyString => None end
      else if (N_of_ascii c <? 32)%N then None
      else match parse_str r with Some (t, rest) => Some (String c t, rest) | None => None end
  end.

Definition is_num_char (c : ascii) : bool :=
  let n := N_of_ascii c in
  ((48 <=? n) && (n <=? 57))%N || Ascii.eqb c "-" || Ascii.eqb c "+" || Ascii.eqb c "." || Ascii.eqb c "e" || Ascii.eqb c "E".

Fixpoint span_num (s : string) : string * string :=
  match s with
  | EmptyString => (EmptyString, EmptyString)
  | String c r => if is_num_char c then let '(a, b) := span_num r in (String c a, b) else (EmptyString, s)
  end.

Fixpoint strip_prefix (p s : string) : option string :=
  match p, s with
  | EmptyString, _ => Some s
  | String a p', String b s' => if Ascii.eqb a b then strip_prefix p' s' else None
  | _, _ => None end.

Fixpoint parse_val (fuel : nat) (s : string) : option (json * string) :=
  match fuel with
  | O => None
  | S f =>
      match s with
      | EmptyString => None
      | String c r =>
          if Ascii.eqb c quote then match parse_str r with Some (t, rest) => Some (JStr t, rest) | None => None end
          else if Ascii.eqb c "[" then
            match r with
            | String d r' => if Ascii.eqb d "]" then Some (JArr [], r')
                             else match parse_elems f r with Some (xs, rest) => Some (JArr xs, rest) | None => None end
            | EmptyString => None end
          else if Ascii.eqb c "{" then
            match r with
            | String d r' => if Ascii.eqb d "}" then Some (JObj [], r')
                             else match parse_members f r with
                                  | Some (kvs, rest) => Some (JObj (fold_left (fun acc kv => obj_insert (fst kv) (snd kv) acc) kvs []), rest)
                                  | None => None end
            | EmptyString => None end
          else if is_num_char c then let '(lit, rest) := span_num s in Some (JNum lit, rest)
          else match strip_prefix "null" s with
               | Some rest => Some (JNull, rest)
               | None => match strip_prefix "true" s with
                         | Some rest => Some (JBool true, rest)
                         | None => match strip_prefix "false" s with
                                   | Some rest => Some (JBool false, rest)
                                   | None => None end end end
      end
  end
with parse_elems (fuel : nat) (s : string) : option (list json * string) :=
  match fuel with
  | O => None
  | S f =>
      match parse_val f s with
      | Some (v, String d r) =>
          if Ascii.eqb d "," then match parse_elems f r with Some (xs, rest) => Some (v :: xs, rest) | None => None end
          else if Ascii.eqb d "]" then Some ([v], r)
          else None
      | _ => None end
  end
with parse_members (fuel : nat) (s : string) : option (list (string * json) * string) :=
  match fuel with
  | O => None
  | S f =>
      match s with
      | String q r =>
          if Ascii.eqb q quote then
            match parse_str r with
            | Some (k, String col r1) =>
                if Ascii.eqb col ":" then
                  match parse_val f r1 with
                  | Some (v, String d r2) =>
                      if Ascii.eqb d "," then match parse_members f r2 with Some (kvs, rest) => Some ((k, v) :: kvs, rest) | None => None end
                      else if Ascii.eqb d "}" then Some ([(k, v)], r2)
                      else None
                  | _ => None end
                else None
            | _ => None end
          else None
      | EmptyString => None end
  end.

Definition parse (s : string) : option json :=
  match parse_val (S (2 * String.length s)) s with
  | Some (v, EmptyString) => Some v
  | _ => None end.

Example ex1 : parse (print (JArr [JStr "salt"; JStr "na""me\"; JObj [("a", JNum "1.5e3"); ("b", JArr [JNull; JBool true; JBool false; JArr []; JObj []])]])) =
              Some (JArr [JStr "salt"; JStr "na""me\"; JObj [("a", JNum "1.5e3"); ("b", JArr [JNull; JBool true; JBool false; JArr []; JObj []])]]).
Proof. vm_compute. reflexivity. Qed.
Example ex2 : print (JArr [JStr (String (ascii_of_N 10) (String (ascii_of_N 1) "x")); JNum "-7"]) = "[""\n\u0001x"",-7]".
Proof. vm_compute. reflexivity. Qed.
Example ex3 : parse "[""é\/"",1]" = Some (JArr [JStr (String (ascii_of_N 195) (String (ascii_of_N 169) "/")); JNum "1"]).
Proof. vm_compute. reflexivity. Qed.
