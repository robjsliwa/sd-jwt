(* base64url without padding (RFC 4648 section 5), as the library uses it for disclosures, digests and JWT
   segments (base64 crate, URL_SAFE_NO_PAD): an executable model, its round trip, and the fact that no output
   character is '~' or '.' - the two separators the SD-JWT framing and the JWS compact form rely on. *)
From Coq Require Import List String Ascii Bool Arith NArith Lia.
Import ListNotations.
Local Open Scope string_scope.
Local Open Scope N_scope.

Definition alphabet : string := "ABCDEFGHIJKLMNOPQRSTUVWXYZabcdefghijklmnopqrstuvwxyz0123456789-_".

Fixpoint nth_char (n : nat) (s : string) : ascii :=
  match s, n with
  | EmptyString, _ => "A"%char
  | String c _, O => c
  | String _ r, S n => nth_char n r end.

Fixpoint index_of (c : ascii) (s : string) (i : N) : option N :=
  match s with
  | EmptyString => None
  | String d r => if Ascii.eqb c d then Some i else index_of c r (i + 1) end.

Definition sextet_char (n : N) : ascii := nth_char (N.to_nat n) alphabet.
Definition char_sextet (c : ascii) : option N := index_of c alphabet 0.

Definition byte (c : ascii) : N := N_of_ascii c.
Definition chr (n : N) : ascii := ascii_of_N n.

Fixpoint encode (s : string) : string :=
  match s with
  | EmptyString => EmptyString
  | String a EmptyString =>
      String (sextet_char (byte a / 4)) (String (sextet_char ((byte a mod 4) * 16)) EmptyString)
  | String a (String b EmptyString) =>
      String (sextet_char (byte a / 4)) (String (sextet_char ((byte a mod 4) * 16 + byte b / 16))
        (String (sextet_char ((byte b mod 16) * 4)) EmptyString))
  | String a (String b (String c r)) =>
      String (sextet_char (byte a / 4)) (String (sextet_char ((byte a mod 4) * 16 + byte b / 16))
        (String (sextet_char ((byte b mod 16) * 4 + byte c / 64)) (String (sextet_char (byte c mod 64)) (encode r))))
  end.

(* strict decoding: alphabet only, no padding, canonical trailing bits, length mod 4 <> 1 *)
Fixpoint decode (s : string) : option string :=
  match s with
  | EmptyString => Some EmptyString
  | String c1 EmptyString => None
  | String c1 (String c2 EmptyString) =>
      match char_sextet c1, char_sextet c2 with
      | Some s1, Some s2 => if s2 mod 16 =? 0 then Some (String (chr (s1 * 4 + s2 / 16)) EmptyString) else None
      | _, _ => None end
  | String c1 (String c2 (String c3 EmptyString)) =>
      match char_sextet c1, char_sextet c2, char_sextet c3 with
      | Some s1, Some s2, Some s3 =>
          if s3 mod 4 =? 0 then Some (String (chr (s1 * 4 + s2 / 16)) (String (chr ((s2 mod 16) * 16 + s3 / 4)) EmptyString)) else None
      | _, _, _ => None end
  | String c1 (String c2 (String c3 (String c4 r))) =>
      match char_sextet c1, char_sextet c2, char_sextet c3, char_sextet c4, decode r with
      | Some s1, Some s2, Some s3, Some s4, Some t =>
          Some (String (chr (s1 * 4 + s2 / 16)) (String (chr ((s2 mod 16) * 16 + s3 / 4)) (String (chr ((s3 mod 4) * 64 + s4)) t)))
      | _, _, _, _, _ => None end
  end.

Definition separator_free (c : ascii) : bool := negb (Ascii.eqb c "~"%char) && negb (Ascii.eqb c "."%char).

Fixpoint all_chars (p : ascii -> bool) (s : string) : bool :=
  match s with EmptyString => true | String c r => p c && all_chars p r end.

Lemma table_below (f : N -> option N) (m : nat) :
  forallb (fun k => match f (N.of_nat k) with Some x => x =? N.of_nat k | None => false end) (seq 0 m) = true ->
  forall n, n < N.of_nat m -> f n = Some n.
Proof.
  intros T n Hn. rewrite forallb_forall in T. specialize (T (N.to_nat n)). rewrite N2Nat.id in T.
  destruct (f n) as [x|]; [|discriminate T; apply in_seq; lia].
  f_equal. apply N.eqb_eq. apply T. apply in_seq. lia.
Qed.

Lemma table_roundtrip_b :
  forallb (fun k => match char_sextet (sextet_char (N.of_nat k)) with Some m => m =? N.of_nat k | None => false end) (seq 0 64) = true.
Proof. vm_compute. reflexivity. Qed.

Lemma sextet_roundtrip n : n < 64 -> char_sextet (sextet_char n) = Some n.
Proof. exact (table_below (fun n => char_sextet (sextet_char n)) 64 table_roundtrip_b n). Qed.

Lemma nth_char_all (p : ascii -> bool) s : p "A"%char = true -> all_chars p s = true -> forall n, p (nth_char n s) = true.
Proof.
  intros HA. induction s as [|c r IH]; intros Hs n; [destruct n; exact HA|].
  cbn [all_chars] in Hs. apply andb_true_iff in Hs as [Hc Hr].
  destruct n as [|n]; [exact Hc|exact (IH Hr n)].
Qed.

Lemma byte_lt c : byte c < 256.
Proof. unfold byte. apply N_ascii_bounded. Qed.

Lemma chr_byte c : chr (byte c) = c.
Proof. apply ascii_N_embedding. Qed.

Lemma string_ind3 (P : string -> Prop) :
  P EmptyString -> (forall a, P (String a EmptyString)) -> (forall a b, P (String a (String b EmptyString))) ->
  (forall a b c r, P r -> P (String a (String b (String c r)))) -> forall s, P s.
Proof.
  intros H0 H1 H2 H3. fix go 1. intros [|a [|b [|c r]]]; [exact H0|apply H1|apply H2|].
  apply H3. apply go.
Qed.

(* a sextet packs the low bits of one byte above the high bits of the next: q * d + r with r < d *)
Lemma pack_div q r d : r < d -> (q * d + r) / d = q.
Proof. intros Hr. symmetry. apply (N.div_unique _ d q r Hr). rewrite (N.mul_comm d q). reflexivity. Qed.

Lemma pack_mod q r d : r < d -> (q * d + r) mod d = r.
Proof. intros Hr. symmetry. apply (N.mod_unique _ d q r Hr). rewrite (N.mul_comm d q). reflexivity. Qed.

Lemma div_mod_join x d : x / d * d + x mod d = x.
Proof. rewrite (N.mul_comm (x / d) d). symmetry. apply N.div_mod'. Qed.

Lemma byte_cut c d m : d * m = 256 -> byte c / d < m /\ byte c mod d < d.
Proof.
  intros Hdm. assert (Hd : d <> 0) by (intros ->; discriminate Hdm). split.
  - apply N.div_lt_upper_bound; [exact Hd|]. rewrite Hdm. apply byte_lt.
  - apply N.mod_lt. exact Hd.
Qed.

(* the encoder cuts the first byte of a group at 4, the second at 16, the third at 64 *)
Theorem decode_encode : forall s, decode (encode s) = Some s.
Proof.
  induction s as [| a | a b | a b c r IH] using string_ind3; cbn [encode decode].
  - reflexivity.
  - destruct (byte_cut a 4 64 eq_refl).
    rewrite !sextet_roundtrip by lia.
    (* the last sextet of a partial group is a multiple of 16 (of 4): its trailing bits are zero *)
    rewrite N.mod_mul, N.div_mul by discriminate. cbn [N.eqb].
    rewrite div_mod_join, chr_byte. reflexivity.
  - destruct (byte_cut a 4 64 eq_refl), (byte_cut b 16 16 eq_refl).
    rewrite !sextet_roundtrip by lia.
    rewrite N.mod_mul, N.div_mul by discriminate. cbn [N.eqb].
    rewrite pack_div, pack_mod by assumption.
    rewrite !div_mod_join, !chr_byte. reflexivity.
  - destruct (byte_cut a 4 64 eq_refl), (byte_cut b 16 16 eq_refl), (byte_cut c 64 4 eq_refl).
    rewrite !sextet_roundtrip by lia. rewrite IH.
    rewrite !pack_div, !pack_mod by assumption.
    rewrite !div_mod_join, !chr_byte. reflexivity.
Qed.

Corollary encode_injective s t : encode s = encode t -> s = t.
Proof. intros E. apply (f_equal decode) in E. rewrite !decode_encode in E. injection E as E. exact E. Qed.

(* every character of the output is taken from the alphabet (or is the 'A' that nth_char gives out of range) *)
Lemma encode_all_chars (p : ascii -> bool) :
  p "A"%char = true -> all_chars p alphabet = true -> forall s, all_chars p (encode s) = true.
Proof.
  intros HA Halphabet.
  assert (Hp : forall n, p (sextet_char n) = true) by (intros n; apply nth_char_all; assumption).
  induction s as [| a | a b | a b c r IH] using string_ind3; cbn [encode all_chars]; rewrite ?Hp, ?IH; reflexivity.
Qed.

Theorem encode_separator_free : forall s, all_chars separator_free (encode s) = true.
Proof. apply encode_all_chars; reflexivity. Qed.

(* the test vectors of RFC 4648 section 10 (padding removed) *)
Example rfc4648_vectors :
  encode "" = "" /\ encode "f" = "Zg" /\ encode "fo" = "Zm8" /\ encode "foo" = "Zm9v" /\
  encode "foob" = "Zm9vYg" /\ encode "fooba" = "Zm9vYmE" /\ encode "foobar" = "Zm9vYmFy".
Proof. vm_compute. repeat split. Qed.
Example not_canonical_rejected : decode "Zh" = None /\ decode "Z" = None /\ decode "Zg==" = None /\ decode "Z~" = None.
Proof. vm_compute. repeat split. Qed.
