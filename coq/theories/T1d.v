(* Blinding turns one marking step into one build_disclosure. *)
From Coq Require Import List String Ascii Bool Arith Lia Sorting.Sorted.
Import ListNotations.
Require Import SDJ.Json SDJ.Model2 SDJ.ATree SDJ.T2a SDJ.T2b SDJ.T2c SDJ.Issuer1 SDJ.T1a SDJ.T1b SDJ.T1c.
Local Open Scope string_scope.

Section T1.
Variable H : string -> string.
Variable enc : list json -> string.
Variable parse_index : string -> option nat.
Variable parse_usize : string -> option nat.
Variable pos : string -> nat.
Notation add_sd := (T1a.add_sd pos).
Notation blind := (blind H enc).
Notation dig_mem := (dig_mem H enc).
Notation wf := (wf H enc).
Notation bitem := (bitem H enc).
Notation bmem := (bmem H enc).
Notation mark := (mark H enc parse_index parse_usize pos).
Notation mk_disc := (mk_disc H enc).
Notation disclose_here := (disclose_here H enc parse_usize pos).
Notation build_disclosure := (build_disclosure H enc parse_index parse_usize pos).
Notation target := (target parse_index parse_usize).

Lemma names_ok_hide (pre post : list (string * (mkind * atree))) n s salt :
  Forall sd_names_ok (pre ++ (n, (MPlain, s)) :: post) -> Forall sd_names_ok (pre ++ (n, (MHid salt, s)) :: post).
Proof. apply Forall_mid_impl; auto. Qed.

Lemma wf_item_mid pre ik s post : wf (AArr (pre ++ (ik, s) :: post)) -> wf s.
Proof. intros Hw. inversion Hw as [|? Hall _|]; subst. exact (Forall_elt _ _ _ Hall). Qed.

Lemma wf_mem_mid pre n mk s post : wf (AObj (pre ++ (n, (mk, s)) :: post)) -> wf s.
Proof. intros Hw. inversion Hw as [| |? _ Hall _]; subst. exact (Forall_elt _ _ _ Hall). Qed.

Lemma has_dots_blind s : wf s -> has_dots (blind s) = false.
Proof.
  intros Hw. destruct s as [j | items | mems].
  - inversion Hw as [j' Hs| |]; subst. destruct j; try reflexivity; contradiction.
  - reflexivity.
  - rewrite blind_obj. cbn [has_dots]. destruct (obj_get "..." (flat_map bmem mems)) as [v|] eqn:E; [|reflexivity]. exfalso.
    apply obj_get_in, in_flat_map in E as ([n [k s]] & Hin & E). apply bmem_key in E. cbn [fst] in E. subst n.
    inversion Hw as [| | ? _ _ Hok]; subst. rewrite Forall_forall in Hok. specialize (Hok _ Hin). cbn in Hok. tauto.
Qed.

Lemma disclose_here_item key salt pre s post :
  wf (AArr (pre ++ (IPlain, s) :: post)) -> parse_usize key = Some (List.length pre) ->
  disclose_here key salt (blind (AArr (pre ++ (IPlain, s) :: post))) =
  Ok (blind (AArr (pre ++ (IHid salt, s) :: post)), mk_disc salt None (blind s)).
Proof.
  intros Hw Ep. rewrite !blind_arr. cbn [Issuer1.disclose_here]. rewrite Ep, nth_error_map, nth_error_mid.
  cbn [option_map T1b.bitem]. rewrite (has_dots_blind s (wf_item_mid _ _ _ _ Hw)).
  change (placeholder_json (d_digest (mk_disc salt None (blind s)))) with (bitem (IHid salt, s)).
  rewrite list_set_map, list_set_mid. reflexivity.
Qed.

Lemma disclose_here_mem key salt pre s post :
  wf (AObj (pre ++ (key, (MPlain, s)) :: post)) ->
  disclose_here key salt (blind (AObj (pre ++ (key, (MPlain, s)) :: post))) =
  Ok (blind (AObj (add_sd (dig_mem salt key s) (pre ++ (key, (MHid salt, s)) :: post))), mk_disc salt (Some key) (blind s)).
Proof.
  intros Hw. set (mems' := (pre ++ (key, (MHid salt, s)) :: post)%list).
  pose proof (names_ok_hide _ _ _ _ salt (names_ok_of_wf H enc _ Hw)) as Hn'.
  inversion Hw as [| | ? Hs _ Hok]; subst. apply Forall_elt in Hok. cbn in Hok. destruct Hok as [Hdots Hsd].
  rewrite map_app in Hs.
  assert (Hs' : StronglySorted slt (map fst mems')) by (unfold mems'; rewrite map_app; exact Hs).
  apply ssorted_split in Hs as [Hlt _].
  pose proof (keyed_notin bmem (bmem_key H enc) (fun n => slt n key) key pre Hlt (slt_irrefl key)) as Hnik.
  rewrite blind_obj, flat_map_app. cbn [flat_map T1b.bmem app Issuer1.disclose_here].
  rewrite obj_get_mid_found by assumption.
  destruct (String.eqb_spec key "_sd"); [contradiction|]. destruct (String.eqb_spec key "..."); [contradiction|]. cbn [orb].
  rewrite obj_remove_mid by assumption.
  replace (flat_map bmem pre ++ flat_map bmem post)%list with (flat_map bmem mems') by (unfold mems'; rewrite flat_map_app; reflexivity).
  pose proof (bmems_add_sd H enc pos (dig_mem salt key s) mems' Hs' Hn') as Hadd. rewrite blind_obj.
  destruct (obj_get "_sd" (flat_map bmem mems')) as [[| | | |ds|]|]; try contradiction; rewrite <- Hadd; reflexivity.
Qed.

Theorem build_disclosure_mark key salt : forall toks t t',
  wf t -> mark toks key salt t = Some t' ->
  exists k s, target toks key t = Some (k, s) /\ build_disclosure (blind t) toks key salt = Ok (blind t', mk_disc salt k (blind s)).
Proof.
  intros toks t t' Hw Hm. destruct (mark_marks Hm) as (k & u & Ht & HM). exists k, u. split; [exact Ht|]. clear Hm Ht.
  unfold Issuer1.build_disclosure.
  induction HM as [pre s post Hi | pre s post Hni | tok rest pre s s' post k u Hi HM IH | tok rest pre s s' post k u Hni HM IH];
    cbn [Issuer1.update_at].
  - apply disclose_here_item; assumption.
  - apply disclose_here_mem; assumption.
  - rewrite !blind_arr, Hi, nth_error_map, nth_error_mid. cbn [option_map T1b.bitem].
    rewrite (IH (wf_item_mid _ _ _ _ Hw)). cbn [bind].
    change (blind s') with (bitem (IPlain, s')). rewrite list_set_map, list_set_mid. reflexivity.
  - inversion Hw as [| | ? Hs _ _]; subst. rewrite map_app in Hs. apply ssorted_split in Hs as [Hlt _].
    rewrite !blind_obj, !flat_map_app. cbn [flat_map T1b.bmem app].
    rewrite obj_get_mid_found by exact (keyed_notin bmem (bmem_key H enc) (fun n => slt n tok) tok pre Hlt (slt_irrefl tok)).
    rewrite (IH (wf_mem_mid _ _ _ _ _ Hw)). cbn [bind].
    rewrite (keyed_replace bmem (bmem_key H enc) tok _ _ pre post Hlt). reflexivity.
Qed.
Print Assumptions build_disclosure_mark.
End T1.
