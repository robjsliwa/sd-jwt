(* Rejection rules (C12) at the level of the functions that implement them. *)
From Coq Require Import List String Bool Lia.
Import ListNotations.
Require Import SDJ.Json SDJ.Wire SDJ.Model2 SDJ.Out SDJ.Restore2 SDJ.SplitM SDJ.Verify.
Local Open Scope string_scope.

Section P.
Variable H : string -> string.
Variable dec : string -> dec_result.
Variable show_nat : nat -> string.

Lemma from_base64_not_array s : (forall xs, dec s <> DJson (JArr xs)) -> from_base64 H dec s = Err.
Proof.
  intros Hn. unfold from_base64. destruct (dec s) as [|j]; [reflexivity|].
  destruct j; try reflexivity. exfalso. eapply Hn. reflexivity.
Qed.

Lemma from_base64_arity s xs : dec s = DJson (JArr xs) -> List.length xs <> 2 -> List.length xs <> 3 ->
  from_base64 H dec s = Err.
Proof.
  intros Hd H2 H3. unfold from_base64. rewrite Hd.
  destruct xs as [|a [|b [|c [|d r]]]]; cbn in *; try reflexivity; lia.
Qed.

Lemma from_base64_name_not_string s salt k v : dec s = DJson (JArr [salt; k; v]) ->
  (forall n, k <> JStr n) -> from_base64 H dec s = Err.
Proof.
  intros Hd Hk. unfold from_base64. rewrite Hd. destruct k; try reflexivity. exfalso. eapply Hk. reflexivity.
Qed.

Lemma from_base64_reserved s salt n v : dec s = DJson (JArr [salt; JStr n; v]) ->
  n = "_sd" \/ n = "..." -> from_base64 H dec s = Err.
Proof.
  intros Hd Hn. unfold from_base64. rewrite Hd. destruct Hn as [-> | ->]; reflexivity.
Qed.

Lemma decode_all_err L s : In s L -> from_base64 H dec s = Err -> decode_all H dec L = Err.
Proof.
  induction L as [|x r IH]; [intros []|]. intros [-> | Hin] He; cbn.
  - rewrite He. reflexivity.
  - destruct (from_base64 H dec x); [|reflexivity]. cbn. rewrite IH by assumption. reflexivity.
Qed.

Lemma restore_disclosures_bad_member claims L s : In s L -> from_base64 H dec s = Err ->
  restore_disclosures H dec show_nat claims L = Err.
Proof.
  intros Hin He. unfold restore_disclosures, restore_passes. rewrite (decode_all_err L s Hin He). reflexivity.
Qed.
End P.

(* the object step of restore_disclosure *)
Lemma sd_step_collision d path kvs sd k x :
  obj_get "_sd" kvs = Some sd -> sd_contains sd (d_digest d) = Ok true ->
  d_key d = Some k -> obj_get k kvs = Some x -> sd_step d path kvs = Err.
Proof. intros H1 H2 H3 H4. unfold sd_step. rewrite H1, H2. cbn. rewrite H3, H4. reflexivity. Qed.

Lemma sd_step_element_in_sd d path kvs sd :
  obj_get "_sd" kvs = Some sd -> sd_contains sd (d_digest d) = Ok true ->
  d_key d = None -> sd_step d path kvs = Err.
Proof. intros H1 H2 H3. unfold sd_step. rewrite H1, H2. cbn. rewrite H3. reflexivity. Qed.

Lemma sd_step_sd_not_array d path kvs sd :
  obj_get "_sd" kvs = Some sd -> (forall xs, sd <> JArr xs) -> sd_step d path kvs = Err.
Proof.
  intros H1 Hn. unfold sd_step. rewrite H1. destruct sd; try reflexivity. exfalso. eapply Hn. reflexivity.
Qed.

Lemma check_digests_sd_not_array n kvs sd seen :
  obj_get "_sd" kvs = Some sd -> (forall xs, sd <> JArr xs) -> check_digests (S n) (JObj kvs) seen = Err.
Proof.
  intros H1 Hn. cbn [check_digests]. rewrite H1.
  destruct sd; try reflexivity. exfalso. eapply Hn. reflexivity.
Qed.

(* unsupported _sd_alg (the claim is present and is not the name of a supported algorithm - in particular when it
   is not a string): both verification entry points reject, whatever else the token contains *)
Lemma declared_halg_unsupported claims :
  jhas "_sd_alg" claims = true -> (forall a, jget "_sd_alg" claims = JStr a -> parse_halg a = None) ->
  declared_halg claims = None.
Proof.
  intros Hhas Ha. unfold declared_halg. rewrite Hhas.
  destruct (jget "_sd_alg" claims) eqn:E; try reflexivity. cbn [jstr_or_empty]. apply Ha. reflexivity.
Qed.

Lemma declared_halg_str claims a : jget "_sd_alg" claims = JStr a -> declared_halg claims = parse_halg a.
Proof.
  unfold declared_halg, jhas, jget. destruct claims as [| | | | |kvs]; try discriminate.
  destruct (obj_get "_sd_alg" kvs); [|discriminate]. intros ->. reflexivity.
Qed.

(* the default: a token without the claim is processed with sha-256 (repair F18) *)
Lemma declared_halg_default claims : jhas "_sd_alg" claims = false -> declared_halg claims = Some SHA256.
Proof. intros Hh. unfold declared_halg. rewrite Hh. reflexivity. Qed.

Lemma verifier_bad_alg O token kbpol jwt ds kb hdr claims :
  sd_jwt_parts_m token = Val (jwt, ds, kb) -> o_jwt O jwt = Val (hdr, claims) ->
  jhas "_sd_alg" claims = true -> (forall a, jget "_sd_alg" claims = JStr a -> parse_halg a = None) ->
  verifier_verify O token kbpol = Fail.
Proof.
  intros Hp Hj Hhas Ha. unfold verifier_verify, verifier_verify_raw. rewrite Hp. cbn [obind]. rewrite Hj. cbn [obind].
  destruct (is_null (jget "cnf" claims) && _); [reflexivity|].
  destruct (negb (is_null (jget "cnf" claims)) && _); [reflexivity|].
  rewrite (declared_halg_unsupported claims Hhas Ha). reflexivity.
Qed.

Lemma holder_bad_alg O token jwt ds hdr claims :
  sd_jwt_parts_m token = Val (jwt, ds, None) -> o_jwt O jwt = Val (hdr, claims) ->
  jhas "_sd_alg" claims = true -> (forall a, jget "_sd_alg" claims = JStr a -> parse_halg a = None) ->
  holder_verify O token = Fail.
Proof.
  intros Hp Hj Hhas Ha. unfold holder_verify, holder_verify_raw. rewrite Hp. cbn [obind]. rewrite Hj. cbn [obind].
  rewrite (declared_halg_unsupported claims Hhas Ha). reflexivity.
Qed.

Lemma parse_halg_some a alg : parse_halg a = Some alg -> a = "sha-256" \/ a = "sha-384" \/ a = "sha-512".
Proof.
  unfold parse_halg. destruct (String.eqb_spec a "sha-256"); [auto|].
  destruct (String.eqb_spec a "sha-384"); [auto|]. destruct (String.eqb_spec a "sha-512"); [auto|]. discriminate.
Qed.
