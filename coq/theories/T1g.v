(* Marking adds one digest, that of the new disclosure, to the hidden digests and to all digests of the tree. *)
From Coq Require Import List String Ascii Bool Arith Lia Sorting.Sorted Permutation.
Import ListNotations.
Require Import SDJ.Json SDJ.Model2 SDJ.ATree SDJ.T2c SDJ.T2e SDJ.Issuer1 SDJ.T1a SDJ.T1b SDJ.T1c SDJ.T1d SDJ.T1f.
Local Open Scope string_scope.

Lemma perm_mid {A} (a b c : list A) g : Permutation (a ++ (g :: b) ++ c) (g :: a ++ b ++ c).
Proof. cbn. symmetry. apply Permutation_middle. Qed.

Lemma perm_mid2 {A} (a b b' c : list A) g : Permutation b' (g :: b) -> Permutation (a ++ b' ++ c) (g :: a ++ b ++ c).
Proof.
  intros Hp. transitivity (a ++ (g :: b) ++ c)%list.
  - apply Permutation_app_head. apply Permutation_app_tail. assumption.
  - apply perm_mid.
Qed.

Section T1g.
Variable H : string -> string.
Variable enc : list json -> string.
Variable parse_index : string -> option nat.
Variable parse_usize : string -> option nat.
Variable pos : string -> nat.
Notation blind := (blind H enc).
Notation wf := (wf H enc).
Notation hdigs := (hdigs H enc).
Notation alldigs := (alldigs H enc).
Notation hdigs_mem := (hdigs_mem H enc).
Notation mark := (mark H enc parse_index parse_usize pos).
Notation target := (target parse_index parse_usize).
Notation mk_disc := (mk_disc H enc).

Theorem mark_digs key salt : forall toks t t' k s,
  wf t -> mark toks key salt t = Some t' -> target toks key t = Some (k, s) ->
  let g := d_digest (mk_disc salt k (blind s)) in
  Permutation (hdigs t') (g :: hdigs t) /\ Permutation (alldigs t') (g :: alldigs t).
Proof.
  intros toks t t' k u Hw Hm Ht. pose proof (mark_marks_target Hm Ht) as HM. clear Hm Ht. cbv zeta.
  induction HM as [pre s post Hi | pre s post Hni | tok rest pre s s' post k u Hi HM IH | tok rest pre s s' post k u Hni HM IH].
  - rewrite !(hdigs_arr H enc), !alldigs_arr, !flat_map_app. cbn [flat_map T2e.hdigs_item T2c.adigs_item].
    split; apply perm_mid.
  - pose proof (names_ok_hide _ _ _ _ salt (names_ok_of_wf H enc _ Hw)) as Hn'.
    rewrite !(hdigs_obj H enc), !alldigs_obj, (add_sd_lists pos _ _ (fun n l s1 => eq_refl) _ Hn').
    rewrite (add_sd_flat_map_same pos hdigs_mem _ eq_refl (fun _ _ _ _ => eq_refl)).
    rewrite !flat_map_app. cbn [flat_map T2e.hdigs_item T2e.hdigs_mem T2c.adigs_mem]. split; [apply perm_mid|reflexivity].
  - destruct (IH (wf_item_mid H enc _ _ _ _ Hw)) as [Hp1 Hp2].
    rewrite !(hdigs_arr H enc), !alldigs_arr, !flat_map_app. cbn [flat_map T2e.hdigs_item T2c.adigs_item].
    split; apply perm_mid2; assumption.
  - destruct (IH (wf_mem_mid H enc _ _ _ _ _ Hw)) as [Hp1 Hp2].
    rewrite !(hdigs_obj H enc), !alldigs_obj, !flat_map_app. cbn [flat_map T2e.hdigs_mem T2c.adigs_mem].
    split; apply perm_mid2; assumption.
Qed.
End T1g.
