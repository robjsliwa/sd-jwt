(* What a Val result of the out monad went through (obind_val and the like, read by the entry-point proofs stage by
   stage), and the checked splitters of SplitM.v against their specification in Split.v: they never panic. *)
From Coq Require Import List String Arith Lia.
Import ListNotations.
Require Import SDJ.Json SDJ.Model2 SDJ.Out SDJ.Split SDJ.SplitM.
Local Open Scope string_scope.

Lemma obind_val {A B} (x : out A) (f : A -> out B) b : obind x f = Val b <-> exists a, x = Val a /\ f a = Val b.
Proof.
  destruct x as [a| |]; cbn [obind]; split; try discriminate; try (intros (a' & Hx & _); discriminate).
  - eauto.
  - intros (a' & [= <-] & Hf). exact Hf.
Qed.

Lemma if_fail_val {B} (c : bool) (x : out B) b : (if c then Fail else x) = Val b -> c = false /\ x = Val b.
Proof. destruct c; [discriminate|auto]. Qed.

Lemma match_str_val {B} (j : json) (f : string -> out B) b :
  match j with JStr s => f s | _ => Fail end = Val b -> exists s, j = JStr s /\ f s = Val b.
Proof. destruct j; try discriminate. eauto. Qed.

Lemma match_some_val {A B} (o : option A) (f : A -> out B) b :
  match o with Some a => f a | None => Fail end = Val b -> exists a, o = Some a /\ f a = Val b.
Proof. destruct o; [eauto|discriminate]. Qed.

Lemma of_res_no_panic {A} (r : res A) : of_res r <> Panic.
Proof. destruct r; discriminate. Qed.

Lemma obind_no_panic {A B} (x : out A) (f : A -> out B) : x <> Panic -> (forall a, f a <> Panic) -> obind x f <> Panic.
Proof. intros Hx Hf. destruct x; cbn; [apply Hf|discriminate|contradiction]. Qed.

Lemma nth_error_last {A} (l : list A) d : l <> [] -> nth_error l (List.length l - 1) = Some (last l d).
Proof.
  induction l as [|x r IH]; [congruence|]. intros _. destruct r as [|y r']; [reflexivity|].
  replace (List.length (x :: y :: r') - 1) with (S (List.length (y :: r') - 1)) by (cbn; lia).
  cbn [nth_error]. rewrite IH by discriminate. reflexivity.
Qed.

Lemma usub_S1 n : usub (S n) 1 = Val n.
Proof. unfold usub. cbn [Nat.leb]. f_equal. lia. Qed.

Lemma slice_ok {A} (l : list A) lo hi : lo <= hi <= List.length l -> slice l lo hi = Val (firstn (hi - lo) (skipn lo l)).
Proof. intros [H1 H2]. unfold slice. rewrite (proj2 (Nat.leb_le _ _) H1), (proj2 (Nat.leb_le _ _) H2). reflexivity. Qed.

Lemma index_last {A} (x : A) rest d : rest <> [] -> index (x :: rest) (List.length rest) = Val (last rest d).
Proof.
  intros Hne. unfold index. destruct (List.length rest) as [|m] eqn:El; [destruct rest; [congruence|discriminate]|].
  cbn [nth_error]. replace m with (List.length rest - 1) by lia. rewrite (nth_error_last rest d) by assumption. reflexivity.
Qed.

Lemma parts_tail_spec s jwt rest : rest <> [] ->
  parts_tail s (jwt :: rest) =
  Val (jwt, removelast rest, if String.eqb (last rest "") "" then None else Some (last rest "")).
Proof.
  intros Hne. unfold parts_tail. cbn [List.length]. rewrite usub_S1.
  change (index (jwt :: rest) 0) with (Val (A:=string) jwt). cbn [obind].
  rewrite slice_ok by (destruct rest; [congruence|cbn [List.length]; lia]). cbn [skipn obind].
  rewrite Nat.sub_1_r, <- removelast_firstn_len, (index_last jwt rest "") by assumption. reflexivity.
Qed.

(* C10 (splitter): the repaired splitter is total and equals the panic-free specification *)
Theorem sd_jwt_parts_m_total s : sd_jwt_parts_m s = Val (sd_jwt_parts s).
Proof.
  unfold sd_jwt_parts_m, sd_jwt_parts. pose proof (split_on_nonempty tilde s) as Hne.
  destruct (split_on tilde s) as [|jwt rest]; [congruence|]. destruct rest as [|d rest']; [reflexivity|].
  cbn [List.length Nat.ltb Nat.leb]. rewrite parts_tail_spec by discriminate. reflexivity.
Qed.

Theorem drop_kb_m_total s : drop_kb_m s = Val (drop_kb s).
Proof.
  unfold drop_kb_m, drop_kb. pose proof (split_on_nonempty tilde s) as Hne.
  destruct (split_on tilde s) as [|a rest] eqn:E; [congruence|]. destruct rest as [|b rest']; [reflexivity|].
  cbn [List.length Nat.ltb Nat.leb]. rewrite usub_S1. cbn [obind].
  rewrite slice_ok by (cbn [List.length]; lia). cbn [skipn obind].
  change (S (List.length rest') - 0) with (pred (List.length (a :: b :: rest'))). rewrite <- removelast_firstn_len. reflexivity.
Qed.

Theorem jwt_parts_m_no_panic s : jwt_parts_m s <> Panic.
Proof.
  unfold jwt_parts_m. destruct (split_on dot s) as [|a [|b [|c [|d r]]]]; cbn; discriminate.
Qed.

(* the finding behind repair F5: without the guard the splitter panics on any '~'-free input *)
Theorem sd_jwt_parts_pinned_panics s : contains tilde s = false -> sd_jwt_parts_pinned s = Panic.
Proof.
  intros Hc. unfold sd_jwt_parts_pinned. rewrite split_no_sep by assumption. reflexivity.
Qed.

Theorem sd_jwt_parts_pinned_refuted : exists s, sd_jwt_parts_pinned s = Panic.
Proof. exists "a.a.a". apply sd_jwt_parts_pinned_panics. reflexivity. Qed.
