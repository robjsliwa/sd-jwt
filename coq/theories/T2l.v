(* The pass loop on a view of a conformant token. One call of restore1 for a well-classified disclosure keeps it, places it
   or fails (step_any); a pass is a sequence of such steps (Run); the loop ends with the view of the presented set, and
   fails only on a work list that repeats a digest (passes_any). *)
From Coq Require Import List String Bool Arith Sorting.Permutation.
Import ListNotations.
Require Import SDJ.Json SDJ.Model2 SDJ.ATree SDJ.T2a SDJ.T2c SDJ.T2d SDJ.T2e SDJ.T2g SDJ.T2i SDJ.T2j SDJ.T2k.
Local Open Scope string_scope.

Section L.
Variable H : string -> string.
Variable enc : list json -> string.
Variable show_nat : nat -> string.
Notation view := (view H enc).
Notation hdigs := (hdigs H enc).
Notation alldigs := (alldigs H enc).
Notation wf := (wf H enc).
Notation Exposed := (Exposed H enc).
Notation closedR := (closedR H enc).
Notation IsNode := (IsNode H enc).
Notation NodePath := (NodePath H enc show_nat).
Notation restore1 := (restore1 show_nat).
Notation pass := (pass show_nat).
Notation passes := (passes show_nat).

Variable t : atree.
Hypothesis Hwf : wf t.
Hypothesis Hnd : NoDup (alldigs t).
Hypothesis Hndh : NoDup (hdigs t).
Hypothesis Hheight : aheight t <= 129.   (* the budget Model2.pass gives restore1 *)

Definition ok_disc (d : disc) : Prop :=
  IsNode (d_digest d) (d_key d) (d_val d) t \/ ~ In (d_digest d) (alldigs t).

(* What one call of restore1 does for a disclosure d in the state R. Under closedR an exposed node is placed
   (exposed_placed), so the second part of kept follows from the first; it is stated so that a Run that places nothing
   says of itself that nothing on its work list was exposed (run_idle). *)
Definition kept (R : Rset) (d : disc) : Prop :=
  restore1 129 d "" (view R t) = Ok (view R t, [], false) /\ ~ Exposed R (d_digest d) (d_key d) (d_val d) t.
Definition placed_at (R : Rset) (d : disc) (p : string) : Prop :=
  restore1 129 d "" (view R t) = Ok (view (Radd R (d_digest d)) t, [(p, d)], true) /\
  Exposed R (d_digest d) (d_key d) (d_val d) t /\ NodePath (d_digest d) t p.

Lemma exposed_placed R d : closedR R t -> Exposed R (d_digest d) (d_key d) (d_val d) t -> exists p, placed_at R d p.
Proof.
  intros Hc Hex.
  destruct (restore1_exposed H enc show_nat t Hwf 129 R _ _ _ d Hnd Hndh Hc Hheight Hex eq_refl eq_refl eq_refl) as [p [Hnp Hr]].
  exists p. split; [apply (Hr "")|]. split; assumption.
Qed.

Lemma invisible_kept R d : closedR R t -> occurs (d_digest d) (view R t) = false -> kept R d.
Proof.
  intros Hc Eo.
  assert (Hr : restore1 129 d "" (view R t) = Ok (view R t, [], false)).
  { apply restore1_no_occ; [apply sdwf_view; assumption|assumption|].
    exact (Nat.le_trans _ _ _ (height_view H enc R t Hwf) Hheight). }
  split; [assumption|]. intros Hex. destruct (exposed_placed R d Hc Hex) as [p [Hp _]]. congruence.
Qed.

(* decoy digests occur in views as well: ok_disc excludes them *)
Lemma ok_disc_hdigs R d : ok_disc d -> occurs (d_digest d) (view R t) = true -> In (d_digest d) (hdigs t).
Proof. intros [Hn|Hfor] Ho; [eapply IsNode_hdigs; eassumption|]. destruct Hfor. eapply occurs_view; eassumption. Qed.

Lemma ok_disc_node d k v : ok_disc d -> IsNode (d_digest d) k v t -> k = d_key d /\ v = d_val d.
Proof.
  intros [Hn|Hfor] Hn'; [exact (IsNode_fun H enc _ _ _ _ _ _ Hndh Hn' Hn)|].
  destruct Hfor. apply hdigs_alldigs; [assumption|]. eapply IsNode_hdigs; eassumption.
Qed.

(* one call of restore1 on a view, for any well-classified disclosure: when its node is visible it is placed, or - the
   node is opened already, a member - the call fails; when it is not visible nothing happens *)
Lemma step_any R d : closedR R t -> ok_disc d ->
  (restore1 129 d "" (view R t) = Err /\ R (d_digest d) = true) \/ kept R d \/ exists p, placed_at R d p.
Proof.
  intros Hc Hok.
  destruct (occurs (d_digest d) (view R t)) eqn:Eo; [|right; left; apply invisible_kept; assumption].
  destruct (visible H enc R _ t Hwf Hnd Eo (ok_disc_hdigs R d Hok Eo)) as (k & v & Hv).
  destruct (ok_disc_node d k v Hok (Visible_IsNode H enc _ _ _ _ _ Hv)) as [-> ->].
  destruct (R (d_digest d)) eqn:HR.
  - left. split; [|reflexivity]. eapply restore1_reopened; eauto.
  - right. right. apply exposed_placed; [assumption|]. apply Visible_Exposed; assumption.
Qed.

Definition placed_ok (R R' : Rset) (todo : list disc) (pd : dpath) : Prop :=
  In (snd pd) todo /\ R' (d_digest (snd pd)) = true /\
  exists R1, (forall g, R g = true -> R1 g = true) /\ (forall g, R1 g = true -> R' g = true) /\
             Exposed R1 (d_digest (snd pd)) (d_key (snd pd)) (d_val (snd pd)) t /\
             NodePath (d_digest (snd pd)) t (fst pd).

Definition pdig (pd : dpath) : string := d_digest (snd pd).

Lemma placed_ok_weaken R R' S S' todo todo' pd :
  (forall g, S g = true -> R g = true) -> (forall g, R' g = true -> S' g = true) ->
  (forall d, In d todo -> In d todo') ->
  placed_ok R R' todo pd -> placed_ok S S' todo' pd.
Proof.
  intros H1 H2 H3 (Hin & HR' & R1 & Ha & Hb & Hex). split; [auto|]. split; [auto|]. exists R1. split; [auto|]. split; [auto|assumption].
Qed.

Lemma placed_ok_new R R' todo pd : placed_ok R R' todo pd -> R (pdig pd) = false.
Proof.
  intros (_ & _ & R1 & Ha & _ & Hex & _). apply Exposed_R_false in Hex.
  destruct (R (pdig pd)) eqn:E; [|reflexivity]. apply Ha in E. unfold pdig in E. congruence.
Qed.

(* One pass over todo that starts in state R, as a relation: each disclosure in turn is kept for the next pass or
   placed; R' is the state reached, rem what is kept, b whether anything was placed. *)
Inductive Run : Rset -> list disc -> Rset -> list dpath -> list disc -> bool -> Prop :=
| run_nil R : Run R [] R [] [] false
| run_keep R d r R' placed rem b :
    kept R d -> Run R r R' placed rem b -> Run R (d :: r) R' placed (d :: rem) b
| run_place R d p r R' placed rem b :
    placed_at R d p -> Run (Radd R (d_digest d)) r R' placed rem b -> Run R (d :: r) R' ((p, d) :: placed) rem true.

Lemma run_pass {R todo R' placed rem b} : Run R todo R' placed rem b ->
  forall ps, pass todo (view R t) ps = Ok (view R' t, (ps ++ placed)%list, rem, b).
Proof.
  induction 1 as [R | R d r R' placed rem b [Hr _] _ IH | R d p r R' placed rem b [Hr _] _ IH]; intros ps; cbn [Model2.pass].
  - rewrite app_nil_r. reflexivity.
  - rewrite Hr. cbn [bind List.length Nat.ltb Nat.leb]. rewrite IH, app_nil_r. reflexivity.
  - rewrite Hr. cbn [bind List.length Nat.ltb Nat.leb]. rewrite IH, <- app_assoc. reflexivity.
Qed.

Lemma run_closed {R todo R' placed rem b} : Run R todo R' placed rem b -> closedR R t -> closedR R' t.
Proof.
  induction 1 as [R | R d r R' placed rem b _ _ IH | R d p r R' placed rem b (_ & Hex & _) _ IH]; intros Hc; [assumption|auto|].
  apply IH. eapply closedR_add; eauto.
Qed.

Lemma run_opened {R todo R' placed rem b} : Run R todo R' placed rem b ->
  forall g, R' g = true <-> R g = true \/ In g (map pdig placed).
Proof.
  induction 1 as [R | R d r R' placed rem b _ _ IH | R d p r R' placed rem b _ _ IH]; intros g; [cbn; tauto|apply IH|].
  rewrite IH, Radd_true. cbn [map In]. change (pdig (p, d)) with (d_digest d).
  split; [intros [[->|Hg]|Hg]|intros [Hg|[<-|Hg]]]; auto.
Qed.

Lemma run_split {R todo R' placed rem b} : Run R todo R' placed rem b -> Permutation todo (map snd placed ++ rem).
Proof.
  induction 1 as [R | R d r R' placed rem b _ _ IH | R d p r R' placed rem b _ _ IH];
    [constructor|apply Permutation_cons_app; assumption|constructor; assumption].
Qed.

Lemma run_placed_ok {R todo R' placed rem b} : Run R todo R' placed rem b -> Forall (placed_ok R R' todo) placed.
Proof.
  induction 1 as [R | R d r R' placed rem b _ _ IH | R d p r R' placed rem b (_ & Hex & Hnp) Hrun IH]; [constructor| |].
  - eapply Forall_impl; [|exact IH]. intros pd. apply placed_ok_weaken; auto. intros d' Hd'. right. assumption.
  - pose proof (run_opened Hrun) as Hop.
    assert (Hle : forall g, R g = true -> R' g = true) by (intros g Hg; apply Hop; left; apply Radd_mono; assumption).
    constructor.
    + split; [left; reflexivity|]. split; [apply Hop; left; apply Radd_same|]. exists R. auto.
    + eapply Forall_impl; [|exact IH]. intros pd. apply placed_ok_weaken; auto.
      * intros g. apply Radd_mono.
      * intros d' Hd'. right. assumption.
Qed.

Lemma run_placed_nodup {R todo R' placed rem b} : Run R todo R' placed rem b -> NoDup (map pdig placed).
Proof.
  induction 1 as [R | R d r R' placed rem b _ _ IH | R d p r R' placed rem b _ Hrun IH]; [constructor|assumption|].
  cbn [map]. constructor; [|assumption]. intros Hin. apply in_map_iff in Hin as [pd [Hq Hpd]].
  pose proof (run_placed_ok Hrun) as Hpl. rewrite Forall_forall in Hpl.
  apply Hpl, placed_ok_new in Hpd. rewrite Hq in Hpd. cbn [pdig snd] in Hpd. rewrite Radd_same in Hpd. discriminate.
Qed.

Lemma run_idle {R todo R' placed rem} : Run R todo R' placed rem false ->
  R' = R /\ rem = todo /\ forall d, In d todo -> ~ Exposed R (d_digest d) (d_key d) (d_val d) t.
Proof.
  intros Hrun. remember false as b eqn:Eb.
  induction Hrun as [R | R d r R' placed rem b [_ Hne] _ IH | R d p r R' placed rem b _ _ _]; [|destruct (IH Eb) as (-> & -> & Hn)|discriminate].
  - repeat split. intros ? [].
  - repeat split. intros d' [<-|Hd']; auto.
Qed.

Lemma run_progress {R todo R' placed rem b} : Run R todo R' placed rem b -> b = true -> List.length rem < List.length todo.
Proof.
  induction 1 as [R | R d r R' placed rem b _ _ IH | R d p r R' placed rem b _ Hrun _]; intros Eb; cbn [List.length];
    [discriminate|apply -> Nat.succ_lt_mono; exact (IH Eb)|].
  rewrite (Permutation_length (run_split Hrun)), app_length. apply Nat.lt_succ_r, Nat.le_add_l.
Qed.

Lemma pdig_map (placed : list dpath) : map pdig placed = map d_digest (map snd placed).
Proof. symmetry. apply map_map. Qed.

(* the work list of the first pass: no digest twice, none opened yet; every later work list is like that again *)
Definition unopened (R : Rset) (todo : list disc) : Prop :=
  NoDup (map d_digest todo) /\ forall d, In d todo -> R (d_digest d) = false.

Lemma run_digests {R todo R' placed rem b} : Run R todo R' placed rem b ->
  Permutation (map d_digest todo) (map pdig placed ++ map d_digest rem).
Proof. intros Hrun. rewrite pdig_map, <- map_app. apply Permutation_map, (run_split Hrun). Qed.

Lemma run_unopened {R todo R' placed rem b} : Run R todo R' placed rem b -> unopened R todo -> unopened R' rem.
Proof.
  intros Hrun [Hnd' HR]. apply (Permutation_NoDup (run_digests Hrun)) in Hnd'.
  split; [eapply NoDup_app_r; eassumption|]. intros d Hd.
  destruct (R' (d_digest d)) eqn:E; [exfalso|reflexivity].
  apply (run_opened Hrun) in E as [E|E].
  - rewrite HR in E; [discriminate|]. apply (Permutation_in _ (Permutation_sym (run_split Hrun))), in_or_app. right. assumption.
  - apply (NoDup_app_disj _ _ _ Hnd' E). apply in_map. assumption.
Qed.

Lemma unopened_cons R d r : unopened R (d :: r) ->
  R (d_digest d) = false /\ unopened R r /\ unopened (Radd R (d_digest d)) r.
Proof.
  intros [Hnd' HR]. cbn [map] in Hnd'. apply NoDup_cons_iff in Hnd' as [Hni Hnd'].
  split; [apply HR; left; reflexivity|]. split; (split; [assumption|]); intros d' Hd'; [apply HR; right; assumption|].
  rewrite Radd_other; [apply HR; right; assumption|]. intros Hq. apply Hni. rewrite <- Hq. apply in_map. assumption.
Qed.

(* a pass over any work list is a Run, or it fails - on a disclosure whose digest is opened by then, so the list repeats
   a digest or held an opened one *)
Lemma any_run : forall todo R, closedR R t -> (forall d, In d todo -> ok_disc d) ->
  ((forall ps, pass todo (view R t) ps = Err) /\ ~ unopened R todo) \/ exists R' placed rem b, Run R todo R' placed rem b.
Proof.
  induction todo as [|d r IH]; intros R Hc Hall; [right; exists R, [], [], false; constructor|].
  pose proof (fun d' Hd' => Hall d' (or_intror Hd')) as Hall'.
  destruct (step_any R d Hc (Hall d (or_introl eq_refl))) as [[He HR]|[Hk|[p Hp]]].
  - left. split; [intros ps; cbn [Model2.pass]; rewrite He; reflexivity|].
    intros HU. apply unopened_cons in HU as [HU _]. congruence.
  - destruct (IH R Hc Hall') as [[He Hnu]|(R' & placed & rem & b & Hrun)].
    + left. split; [|intros HU; apply Hnu, (unopened_cons _ _ _ HU)].
      intros ps. cbn [Model2.pass]. rewrite (proj1 Hk). cbn [bind List.length Nat.ltb Nat.leb]. rewrite He. reflexivity.
    + right. exists R', placed, (d :: rem), b. constructor; assumption.
  - destruct (IH (Radd R (d_digest d))) as [[He Hnu]|(R' & placed & rem & b & Hrun)]; [|assumption| |].
    + destruct Hp as (_ & Hex & _). eapply closedR_add; eauto.
    + left. split; [|intros HU; apply Hnu, (unopened_cons _ _ _ HU)].
      intros ps. cbn [Model2.pass]. rewrite (proj1 Hp). cbn [bind List.length Nat.ltb Nat.leb]. rewrite He. reflexivity.
    + right. exists R', ((p, d) :: placed), rem, true. econstructor; eassumption.
Qed.

Lemma pass_spec : forall todo R ps,
  closedR R t -> (forall d, In d todo -> ok_disc d /\ R (d_digest d) = false) -> NoDup (map d_digest todo) ->
  exists R' placed rem b, pass todo (view R t) ps = Ok (view R' t, (ps ++ placed)%list, rem, b) /\
    closedR R' t /\
    (forall g, R' g = true -> R g = true \/ In g (map d_digest todo)) /\
    (forall g, R g = true -> R' g = true) /\
    (forall d, In d todo -> In d rem \/ R' (d_digest d) = true) /\
    (forall d, In d rem -> In d todo /\ R' (d_digest d) = false) /\
    NoDup (map d_digest rem) /\
    (b = false -> R' = R /\ rem = todo /\ forall d, In d todo -> ~ Exposed R (d_digest d) (d_key d) (d_val d) t) /\
    (b = true -> List.length rem < List.length todo) /\
    Forall (placed_ok R R' todo) placed /\ NoDup (map pdig placed) /\
    (forall g, R' g = true -> R g = true \/ In g (map pdig placed)).
Proof.
  intros todo R ps Hc Hall Hnd'.
  assert (Hun : unopened R todo) by (split; [assumption|intros d Hd; apply Hall; assumption]).
  destruct (any_run todo R Hc (fun d Hd => proj1 (Hall d Hd))) as [[_ []]|(R' & placed & rem & b & Hrun)]; [assumption|].
  pose proof (run_opened Hrun) as Hop. pose proof (run_split Hrun) as Hsp.
  pose proof (run_placed_ok Hrun) as Hpl. destruct (run_unopened Hrun Hun) as [Hndr HRr].
  exists R', placed, rem, b.
  split; [apply run_pass; assumption|]. split; [eapply run_closed; eassumption|].
  split.
  { intros g Hg. apply Hop in Hg as [Hg|Hg]; [left; assumption|right].
    apply in_map_iff in Hg as [pd [<- Hpd]]. rewrite Forall_forall in Hpl. apply (in_map d_digest todo (snd pd)), Hpl. assumption. }
  split; [intros g Hg; apply Hop; left; assumption|].
  split.
  { intros d Hd. apply (Permutation_in _ Hsp), in_app_or in Hd as [Hd|Hd]; [right|left; assumption].
    apply Hop. right. rewrite pdig_map. apply in_map. assumption. }
  split.
  { intros d Hd. split; [|apply HRr; assumption]. apply (Permutation_in _ (Permutation_sym Hsp)), in_or_app. right. assumption. }
  split; [assumption|]. split; [intros ->; apply (run_idle Hrun)|]. split; [apply (run_progress Hrun)|].
  split; [assumption|]. split; [eapply run_placed_nodup; eassumption|]. intros g Hg. apply Hop. assumption.
Qed.

Lemma run_app {R1 l1 R2 p1 r1 b1 l2 R3 p2 r2 b2} :
  Run R1 l1 R2 p1 r1 b1 -> Run R2 l2 R3 p2 r2 b2 -> Run R1 (l1 ++ l2) R3 (p1 ++ p2) (r1 ++ r2) (b1 || b2).
Proof. induction 1; intros Hrun2; cbn [app orb]; [exact Hrun2|apply run_keep; auto|eapply run_place; eauto]. Qed.

(* What the loop has done when it ends with result r: its passes, taken together, are a Run from R to a state Rf over the
   work list followed by the later work lists, which repeat part of it; r is the view of O with the placements of that
   Run, and Rf has that view: it opens nothing outside O and leaves nothing of O exposed. *)
Definition loop_ends (R O : Rset) (pending : list disc) (ps : list dpath) (r : res (json * list dpath)) : Prop :=
  exists more Rf placed rem b, Run R (pending ++ more) Rf placed rem b /\ incl more pending /\
    r = Ok (view O t, (ps ++ placed)%list) /\
    (forall g k v, Exposed Rf g k v t -> O g = false) /\ (forall g, Rf g = true -> O g = true).

(* The loop on any work list: it ends with the view of O, the digests opened at the start together with those of the work
   list, or it fails - and then the work list repeated a digest or held one that was opened already. *)
Lemma passes_any (O : Rset) : forall fuel pending R ps,
  List.length pending < fuel -> closedR R t -> Forall ok_disc pending ->
  (forall g, O g = true <-> R g = true \/ In g (map d_digest pending)) ->
  (passes fuel pending (view R t) ps = Err /\ ~ unopened R pending) \/ loop_ends R O pending ps (passes fuel pending (view R t) ps).
Proof.
  induction fuel as [|fuel IH]; intros pending R ps Hfuel Hc Hok HO; [inversion Hfuel|].
  cbn [Model2.passes]. rewrite Forall_forall in Hok.
  destruct (any_run pending R Hc Hok) as [[He Hnu]|(R' & placed1 & rem & b & Hrun)]; [left; rewrite He; auto|].
  rewrite (run_pass Hrun). cbn [bind].
  pose proof (run_opened Hrun) as Hop.
  assert (HO' : forall g, O g = true <-> R' g = true \/ In g (map d_digest rem)).
  { intros g. rewrite HO, Hop, (run_digests Hrun), in_app_iff. symmetry. apply or_assoc. }
  assert (Hrem : incl rem pending).
  { intros d Hd. apply (Permutation_in _ (Permutation_sym (run_split Hrun))), in_or_app. right. assumption. }
  destruct (negb b || match rem with [] => true | _ :: _ => false end) eqn:Eexit.
  - (* the loop stops: nothing it was given is exposed any more *)
    assert (Hnoex : forall g k v, Exposed R' g k v t -> O g = false).
    { intros g k v Hex. destruct (O g) eqn:Eo; [exfalso|reflexivity].
      apply HO' in Eo as [Eo|Eo]; [apply Exposed_R_false in Hex; congruence|].
      apply in_map_iff in Eo as [d [<- Hd]].
      apply orb_true_iff in Eexit as [Eb|Er]; [|destruct rem; [destruct Hd|discriminate]].
      apply negb_true_iff in Eb. subst b. destruct (run_idle Hrun) as (-> & -> & Hne).
      destruct (ok_disc_node d k v (Hok d Hd) (Exposed_IsNode H enc _ _ _ _ _ Hex)) as [-> ->]. apply (Hne d Hd). assumption. }
    assert (HR'O : forall g, R' g = true -> O g = true) by (intros g Hg; apply HO'; left; assumption).
    right. exists [], R', placed1, rem, b. rewrite app_nil_r.
    split; [assumption|]. split; [intros d []|]. split; [|split; assumption].
    f_equal. f_equal. apply view_fix; auto.
  - (* another pass over what is left *)
    apply orb_false_iff in Eexit as [Eb Er]. apply negb_false_iff in Eb.
    destruct (IH rem R' (ps ++ placed1)%list) as [[He Hnu]|(more & Rf & placed2 & rem2 & b2 & Hrun2 & Hmore & Hp2 & Hfin)]; auto.
    + exact (Nat.lt_le_trans _ _ _ (run_progress Hrun Eb) (proj1 (Nat.lt_succ_r _ _) Hfuel)).
    + eapply run_closed; eassumption.
    + apply Forall_forall. auto.
    + left. split; [assumption|]. intros HU. apply Hnu, (run_unopened Hrun HU).
    + right. exists (rem ++ more)%list, Rf, (placed1 ++ placed2)%list, (rem ++ rem2)%list, (b || b2).
      split; [exact (run_app Hrun Hrun2)|]. split; [|split; [rewrite app_assoc; exact Hp2|exact Hfin]].
      apply incl_app; [assumption|]. intros d Hd. apply Hrem, Hmore, Hd.
Qed.

Variable L : list disc.
Hypothesis HLok : Forall ok_disc L.
Definition own : Rset := fun g => existsb (fun d => String.eqb (d_digest d) g) L.

Lemma own_true g : own g = true <-> exists d, In d L /\ d_digest d = g.
Proof. unfold own. rewrite existsb_exists. setoid_rewrite String.eqb_eq. reflexivity. Qed.

Lemma passes_spec : forall fuel pending R ps,
  List.length pending < fuel -> closedR R t ->
  (forall d, In d pending -> R (d_digest d) = false) -> NoDup (map d_digest pending) ->
  (forall g, R g = true -> own g = true) -> (forall d, In d pending -> In d L) ->
  (forall d, In d L -> In d pending \/ R (d_digest d) = true) ->
  exists placed, passes fuel pending (view R t) ps = Ok (view own t, (ps ++ placed)%list) /\
                 Forall (placed_ok R own pending) placed /\ NoDup (map pdig placed) /\
                 exists Rf, (forall g, Rf g = true -> R g = true \/ In g (map pdig placed)) /\
                            (forall g k v, Exposed Rf g k v t -> own g = false) /\
                            (forall g, Rf g = true -> own g = true).
Proof.
  intros fuel pending R ps Hfuel Hc HRp Hndp Hsubo HpL Hcover.
  destruct (passes_any own fuel pending R ps Hfuel Hc) as [[_ []]|(more & Rf & placed & rem & b & Hrun & Hmore & Hp & Hnoex & Hsub)];
    [| |split; assumption|].
  - rewrite Forall_forall in HLok |- *. auto.
  - intros g. rewrite own_true. split.
    + intros [d [Hd <-]]. destruct (Hcover d Hd); [right; apply in_map|left]; assumption.
    + intros [Hg|Hg]; [apply own_true; auto|]. apply in_map_iff in Hg as [d [Hq Hd]]. eauto.
  - exists placed. split; [assumption|].
    split; [|split; [exact (run_placed_nodup Hrun)|exists Rf; split; [apply (run_opened Hrun)|split; assumption]]].
    eapply Forall_impl; [|exact (run_placed_ok Hrun)]. intros pd. apply placed_ok_weaken; auto.
    intros d Hd. apply in_app_or in Hd as [Hd|Hd]; [assumption|apply Hmore, Hd].
Qed.

(* T2, tree part: whatever list of well-classified disclosures is presented, in whatever order,
   the loop ends with exactly the view determined by the set of presented digests; every presented
   disclosure is recorded at most once, and only if it was placed *)
Theorem restore_all : NoDup (map d_digest L) ->
  exists placed, passes (S (List.length L)) L (view R0 t) [] = Ok (view own t, placed) /\
                 Forall (placed_ok R0 own L) placed /\ NoDup (map pdig placed) /\
                 exists Rf, (forall g, Rf g = true -> In g (map pdig placed)) /\
                            (forall g k v, Exposed Rf g k v t -> own g = false) /\
                            (forall g, Rf g = true -> own g = true).
Proof.
  intros HndL. destruct (passes_spec (S (List.length L)) L R0 []) as (placed & Hp & Hpl & Hnd' & Rf & Hgrow & Hnoex & Hsub); auto.
  - apply closedR_R0.
  - discriminate.
  - exists placed. split; [assumption|]. split; [assumption|]. split; [assumption|]. exists Rf. split; [|auto].
    intros g Hg. destruct (Hgrow g Hg) as [Hf|]; [discriminate|assumption].
Qed.
End L.
