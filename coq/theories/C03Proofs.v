(* C03 / C08 at the entry points: whatever presentation string is sent, if its JWT part is the issuer-signed
   payload of a conformant token, Verifier::verify and Holder::verify either refuse or return the issuer's
   header and exactly the projection determined by the set of presented strings. *)
From Coq Require Import List String Permutation.
Import ListNotations.
Require Import SDJ.Json SDJ.Wire SDJ.Model2 SDJ.Out SDJ.Restore2 SDJ.Split SDJ.ATree
  SDJ.T2c SDJ.T2e SDJ.T2h SDJ.T2m SDJ.T2o SDJ.T2q SDJ.T1n SDJ.Verify SDJ.SplitMProofs SDJ.C05Proofs.
Local Open Scope string_scope.

(* the claims the relying party sees: the projection without the top-level _sd_alg *)
Definition drop_alg (j : json) : json :=
  match j with
  | JObj l => JObj (filter (fun kv => negb (String.eqb (fst kv) "_sd_alg")) l)
  | x => x end.

(* the digest algorithm used for every disclosure is the one named by the signed _sd_alg claim *)
Theorem restore_and_strip_alg O claims ds alg :
  declared_halg claims = Some alg ->
  restore_and_strip O claims ds =
  obind (of_res (restore_disclosures (o_hash O alg) (o_dec O) show_nat claims ds)) (fun cp => Val (remove_digests (fst cp), snd cp)).
Proof. intros Ha. unfold restore_and_strip. rewrite Ha. reflexivity. Qed.

Section C03.
Variable O : oracles.
Variable H : string -> string.
Variable enc : list json -> string.
Hypothesis hash_inj : forall x y, H x = H y -> x = y.
Hypothesis dec_enc : forall ps, o_dec O (enc ps) = DJson (JArr ps).
Notation blind := (blind H enc).
Notation view := (view H enc).
Notation hdigs := (hdigs H enc).
Notation alldigs := (alldigs H enc).
Notation wf := (wf H enc).
Notation proj := (proj H enc).

Variable t : atree.
Hypothesis Hwf : wf t.
Hypothesis Hnd : NoDup (alldigs t).
Hypothesis Hndh : NoDup (hdigs t).
Hypothesis Hheight : aheight t <= 129.   (* the nesting budget restore1 starts with, see Model2.v *)

Lemma remove_digests_view R : remove_digests (view R t) = drop_alg (proj R t).
Proof.
  rewrite <- (strip_view H enc R t Hwf). unfold remove_digests, drop_alg.
  destruct (view R t) as [| | | |xs|kvs] eqn:Ev; try reflexivity.
  rewrite (strip_filter_top (fun k => negb (String.eqb k "_sd_alg"))). reflexivity.
Qed.

(* the stage shared by both verifiers, on the payload of t: whatever list is presented, it fails or yields the
   projection determined by the presented set ... *)
Lemma restore_and_strip_sound claims' ps alg L :
  declared_halg (blind t) = Some alg -> o_hash O alg = H ->
  (forall s, In s L -> In (H s) (alldigs t) -> In (H s) (hdigs t)) ->   (* no presented string hashes to a decoy digest *)
  restore_and_strip O (blind t) L = Val (claims', ps) ->
  claims' = drop_alg (proj (ownS H L) t).
Proof.
  intros Ha Ho Hdecoy Hr. rewrite (restore_and_strip_alg O _ _ alg Ha), Ho in Hr.
  destruct (restore_any_spec H enc (o_dec O) show_nat hash_inj dec_enc t Hwf Hnd Hndh Hheight L Hdecoy) as [He|[ps' Hok]].
  - rewrite He in Hr. discriminate.
  - rewrite Hok in Hr. cbn [of_res obind fst snd] in Hr. injection Hr as <- _. apply remove_digests_view.
Qed.

(* ... and it does yield it, each placed disclosure reported with the path of its node, when the list is
   duplicate-free and decodes *)
Lemma restore_and_strip_complete alg L ds :
  declared_halg (blind t) = Some alg -> o_hash O alg = H ->
  NoDup L -> (forall s, In s L -> In (H s) (alldigs t) -> In (H s) (hdigs t)) ->
  decode_all H (o_dec O) L = Ok ds ->
  exists ps, restore_and_strip O (blind t) L = Val (drop_alg (proj (ownS H L) t), ps) /\
    Forall (fun pd : dpath => In (snd pd) ds /\ NodePath H enc show_nat (d_digest (snd pd)) t (fst pd)) ps.
Proof.
  intros Ha Ho HndL Hdecoy Hd. rewrite (restore_and_strip_alg O _ _ alg Ha), Ho.
  destruct (restore_full_ok_paths H enc (o_dec O) show_nat hash_inj dec_enc t Hwf Hnd Hndh Hheight L ds HndL Hdecoy Hd) as (ps & Hok & Hpl & _).
  rewrite Hok. cbn [of_res obind fst snd]. rewrite remove_digests_view. eauto.
Qed.

(* Verifier::verify: any presentation string, with or without KB-JWT, under any key-binding policy *)
Theorem verifier_verify_sound token kbpol jwt L kb hdr0 hdr claims' alg :
  sd_jwt_parts token = (jwt, L, kb) -> o_jwt O jwt = Val (hdr0, blind t) ->
  declared_halg (blind t) = Some alg -> o_hash O alg = H ->
  (forall s, In s L -> In (H s) (alldigs t) -> In (H s) (hdigs t)) ->
  verifier_verify O token kbpol = Val (hdr, claims') ->
  hdr = hdr0 /\ claims' = drop_alg (proj (ownS H L) t).
Proof.
  intros Hp Hj Ha Ho Hdecoy Hv. unfold verifier_verify in Hv.
  apply obind_val in Hv as ([[h claims] ds] & Hraw & Hv). apply obind_val in Hv as ([c ps] & Hs & [= <- <-]).
  apply verifier_verify_raw_iff in Hraw as (jwt' & kb' & alg' & Hp' & Hj' & _).
  rewrite Hp in Hp'. injection Hp' as <- <- <-. rewrite Hj in Hj'. injection Hj' as <- <-.
  split; [reflexivity|]. eapply restore_and_strip_sound; eauto.
Qed.

Theorem holder_verify_sound token jwt L kb hdr0 hdr claims' ps alg :
  sd_jwt_parts token = (jwt, L, kb) -> o_jwt O jwt = Val (hdr0, blind t) ->
  declared_halg (blind t) = Some alg -> o_hash O alg = H ->
  (forall s, In s L -> In (H s) (alldigs t) -> In (H s) (hdigs t)) ->
  holder_verify O token = Val (hdr, claims', ps) ->
  hdr = hdr0 /\ claims' = drop_alg (proj (ownS H L) t).
Proof.
  intros Hp Hj Ha Ho Hdecoy Hv. unfold holder_verify in Hv.
  apply obind_val in Hv as ([[h claims] ds] & Hraw & Hv). apply obind_val in Hv as ([c ps'] & Hs & [= <- <- <-]).
  apply holder_verify_raw_iff in Hraw as (jwt' & alg' & Hp' & Hj' & _).
  rewrite Hp in Hp'. injection Hp' as <- <- _. rewrite Hj in Hj'. injection Hj' as <- <-.
  split; [reflexivity|]. eapply restore_and_strip_sound; eauto.
Qed.

Theorem verifier_verify_accepts token kbpol L ds hdr0 alg :
  verifier_verify_raw O token kbpol = Val (hdr0, blind t, L) ->
  declared_halg (blind t) = Some alg -> o_hash O alg = H ->
  NoDup L -> (forall s, In s L -> In (H s) (alldigs t) -> In (H s) (hdigs t)) ->
  decode_all H (o_dec O) L = Ok ds ->
  verifier_verify O token kbpol = Val (hdr0, drop_alg (proj (ownS H L) t)).
Proof.
  intros Hraw Ha Ho HndL Hdecoy Hd.
  destruct (restore_and_strip_complete alg L ds Ha Ho HndL Hdecoy Hd) as (ps & Hs & _).
  unfold verifier_verify. rewrite Hraw. cbn [obind]. rewrite Hs. reflexivity.
Qed.

(* on unbound tokens Verifier::verify_raw asks for nothing more *)
Theorem verifier_verify_complete token kbpol jwt L ds hdr0 alg :
  sd_jwt_parts token = (jwt, L, None) -> o_jwt O jwt = Val (hdr0, blind t) ->
  declared_halg (blind t) = Some alg -> o_hash O alg = H ->
  jget "cnf" (blind t) = JNull ->
  NoDup L -> (forall s, In s L -> In (H s) (alldigs t) -> In (H s) (hdigs t)) ->
  decode_all H (o_dec O) L = Ok ds ->
  verifier_verify O token kbpol = Val (hdr0, drop_alg (proj (ownS H L) t)).
Proof.
  intros Hp Hj Ha Ho Hcnf HndL Hdecoy Hd. apply (verifier_verify_accepts token kbpol L ds hdr0 alg); try assumption.
  apply verifier_verify_raw_iff. exists jwt, None, alg. repeat split; try assumption.
  left. unfold kb_required. rewrite Hcnf. split; reflexivity.
Qed.

(* Holder::verify accepts duplicate-free decodable lists on any conformant token, bound or not, and reports
   each placed disclosure with the path of its node *)
Theorem holder_verify_complete token jwt L ds hdr0 alg :
  sd_jwt_parts token = (jwt, L, None) -> o_jwt O jwt = Val (hdr0, blind t) ->
  declared_halg (blind t) = Some alg -> o_hash O alg = H ->
  NoDup L -> (forall s, In s L -> In (H s) (alldigs t) -> In (H s) (hdigs t)) ->
  decode_all H (o_dec O) L = Ok ds ->
  exists ps, holder_verify O token = Val (hdr0, drop_alg (proj (ownS H L) t), ps) /\
    Forall (fun pd : dpath => In (snd pd) ds /\ NodePath H enc show_nat (d_digest (snd pd)) t (fst pd)) ps.
Proof.
  intros Hp Hj Ha Ho HndL Hdecoy Hd.
  destruct (restore_and_strip_complete alg L ds Ha Ho HndL Hdecoy Hd) as (ps & Hs & Hpl).
  assert (Hraw : holder_verify_raw O token = Val (hdr0, blind t, L)) by (apply holder_verify_raw_iff; eauto).
  exists ps. split; [|exact Hpl]. unfold holder_verify. rewrite Hraw. cbn [obind]. rewrite Hs. reflexivity.
Qed.
End C03.
