(* C01 at the level of the entry points of the model: Issuer::encode followed by Holder::verify. *)
From Coq Require Import List String Bool Arith ZArith Sorting.Sorted Permutation.
Import ListNotations.
Require Import SDJ.Json SDJ.Wire SDJ.Model2 SDJ.Out SDJ.Restore2 SDJ.ATree SDJ.T2b SDJ.T2c SDJ.T2d SDJ.T2e SDJ.T2p SDJ.C12Proofs
  SDJ.T1b SDJ.T1e SDJ.T1h SDJ.T1j SDJ.Split SDJ.Issuer2 SDJ.T1k SDJ.T1m SDJ.T1n SDJ.T1r SDJ.T1s
  SDJ.Verify SDJ.C07Proofs SDJ.C13Proofs SDJ.C05Proofs SDJ.C03Proofs.
Local Open Scope string_scope.

Lemma Forall2_impl_In {A B} (R R' : A -> B -> Prop) l l' :
  (forall x y, In x l -> R x y -> R' x y) -> Forall2 R l l' -> Forall2 R' l l'.
Proof.
  intros Himp HF. induction HF as [|a b l l' Hab _ IH]; constructor.
  - apply Himp; [left; reflexivity|exact Hab].
  - apply IH. intros x y Hx. apply Himp. right. exact Hx.
Qed.

Lemma existsb_none {A} (p : A -> bool) l : Forall (fun x => p x = false) l -> existsb p l = false.
Proof. induction 1 as [|x r Hx _ IH]; [reflexivity|]. cbn [existsb]. rewrite Hx, IH. reflexivity. Qed.

(* claims without reserved names pass the issuer's reject_reserved_names check (repair F19) *)
Lemma has_reserved_members top kvs :
  Forall (fun kv : string * json => jwf (snd kv) -> has_reserved false (snd kv) = false) kvs ->
  Forall (fun kv : string * json => fst kv <> "_sd" /\ fst kv <> "..." /\ jwf (snd kv)) kvs ->
  (top = true -> ~ In "_sd_alg" (map fst kvs)) ->
  has_reserved top (JObj kvs) = false.
Proof.
  intros IH Hk Hn. cbn [has_reserved]. apply existsb_none. rewrite Forall_forall in *. intros [k v] Hin.
  destruct (Hk _ Hin) as (H1 & H2 & H3). pose proof (IH _ Hin H3) as Hv. cbn [fst snd] in H1, H2, Hv.
  rewrite (proj2 (String.eqb_neq k "_sd") H1), (proj2 (String.eqb_neq k "...") H2), Hv.
  destruct top; [|reflexivity]. destruct (String.eqb_spec k "_sd_alg") as [->|]; [|reflexivity].
  exfalso. apply (Hn eq_refl). exact (in_map fst _ _ Hin).
Qed.

Lemma has_reserved_jwf : forall j, jwf j -> has_reserved false j = false.
Proof.
  induction j as [| | | | xs IH | kvs IH] using json_ind'; intros Hw; try reflexivity.
  - inversion Hw as [| | | |xs' Hxs|]; subst. cbn [has_reserved]. apply existsb_none.
    rewrite Forall_forall in *. intros x Hx. exact (IH x Hx (Hxs x Hx)).
  - inversion Hw as [| | | | |kvs' _ Hk]; subst. apply has_reserved_members; [assumption|assumption|discriminate].
Qed.

Lemma has_reserved_top kvs : jwf (JObj kvs) -> ~ In "_sd_alg" (map fst kvs) -> has_reserved true (JObj kvs) = false.
Proof.
  intros Hw Hn. inversion Hw as [| | | | |kvs' _ Hk]; subst. apply has_reserved_members; [|assumption|intros _; assumption].
  apply Forall_forall. intros kv _. apply has_reserved_jwf.
Qed.

(* the cnf member that encode adds when key binding is required *)
Definition with_cnf (cnf : option json) (kvs : list (string * json)) : list (string * json) :=
  match cnf with Some c => obj_insert "cnf" c kvs | None => kvs end.

Lemma filter_with_cnf k v cnf (kvs : list (string * json)) : k <> "cnf" -> ~ In k (map fst kvs) ->
  filter (fun kv => negb (String.eqb (fst kv) k)) (with_cnf cnf (obj_insert k v kvs)) = with_cnf cnf kvs.
Proof.
  intros Hk Hn. unfold with_cnf. destruct cnf as [c|]; [|apply filter_insert_same; exact Hn].
  rewrite (obj_insert_comm "cnf" c k v) by (intros Hq; exact (Hk (eq_sym Hq))). apply filter_insert_same.
  intros Hin. apply obj_insert_keys in Hin as [Hq|Hin]; [exact (Hk Hq)|exact (Hn Hin)].
Qed.

Section P.
Variable E : issue_env.
Variable O : oracles.
Notation H := (ie_hash E).
Notation enc := (ie_enc E).

Hypothesis hash_inj : forall x y, H x = H y -> x = y.
Hypothesis dec_enc : forall ps, o_dec O (enc ps) = DJson (JArr ps).
Hypothesis hash_is : o_hash O SHA256 = H.                                   (* the verifier hashes with the issuer's function *)
Hypothesis jwt_round : forall h p j, ie_sign E h p = Val j -> o_jwt O j = Val (h, p).   (* decoding a signed JWT gives back header and payload *)
Hypothesis sign_total : forall h p, exists j, ie_sign E h p = Val j /\ contains tilde j = false.
Hypothesis enc_no_tilde : forall ps, contains tilde (enc ps) = false.
Hypothesis perm_ok : forall xs, Permutation (ie_perm E xs) xs.

Definition decoys_used (max_decoys : option Z) : list string :=
  match max_decoys with Some m => if (0 <? m)%Z then ie_decoys E else [] | None => [] end.

(* the decoy step of encode on the top-level object *)
Definition decoy_stage (kvs : list (string * json)) (max_decoys : option Z) : out (list (string * json)) :=
  match max_decoys with
  | Some m => if (0 <? m)%Z then of_res (add_decoys kvs (ie_decoys E)) else Val kvs
  | None => Val kvs end.

(* what the decoy step does to the digest list of a root (T1m.root_form); the shuffle then permutes it (shuffled) *)
Definition decoyed (max_decoys : option Z) (o : option (list string)) : option (list string) :=
  match max_decoys with
  | Some m => if (0 <? m)%Z then Some (sd_list o ++ ie_decoys E)%list else o
  | None => o end.

Lemma sd_list_decoyed max_decoys o : sd_list (decoyed max_decoys o) = (sd_list o ++ decoys_used max_decoys)%list.
Proof.
  unfold decoyed, decoys_used. destruct max_decoys as [m|]; [destruct (0 <? m)%Z|]; cbn [sd_list]; rewrite ?app_nil_r; reflexivity.
Qed.

Lemma decoy_stage_root (pre post : amems) o max_decoys :
  around "_sd" pre post ->
  decoy_stage (flat_map (bmem H enc) (pre ++ opt_sd o ++ post)) max_decoys =
  Val (flat_map (bmem H enc) (pre ++ opt_sd (decoyed max_decoys o) ++ post)).
Proof.
  intros Hcut. unfold decoy_stage, decoyed. destruct max_decoys as [m|]; [|reflexivity]. destruct (0 <? m)%Z; [|reflexivity].
  unfold add_decoys. rewrite (root_get H enc pre post o Hcut), <- (root_insert H enc pre post o _ Hcut).
  destruct o as [l|]; cbn [option_map sd_list app of_res]; rewrite ?map_app; reflexivity.
Qed.

Definition shuffled (l : list string) : list string := strs_of (ie_perm E (map JStr l)).

Lemma shuffled_spec l : ie_perm E (map JStr l) = map JStr (shuffled l) /\ Permutation (shuffled l) l.
Proof. exact (perm_strs _ l (perm_ok (map JStr l))). Qed.

Lemma shuffle_top_root (pre post : amems) o :
  around "_sd" pre post ->
  shuffle_top E (flat_map (bmem H enc) (pre ++ opt_sd o ++ post)) =
  flat_map (bmem H enc) (pre ++ opt_sd (option_map shuffled o) ++ post).
Proof.
  intros Hcut. unfold shuffle_top. rewrite (root_get H enc pre post o Hcut).
  destruct o as [l|]; cbn [option_map]; [|reflexivity].
  rewrite <- (root_insert H enc pre post (Some l) (shuffled l) Hcut), <- (proj1 (shuffled_spec l)). reflexivity.
Qed.

(* decoys and the shuffle of the top-level digest list, on the annotated tree *)
Lemma root_stage (mems' : amems) (max_decoys : option Z) :
  wf H enc (AObj mems') -> NoDup (alldigs H enc (AObj mems')) ->
  NoDup (decoys_used max_decoys) ->
  (forall g, In g (decoys_used max_decoys) -> ~ In g (alldigs H enc (AObj mems'))) ->
  exists m1 kvs1,
    decoy_stage (flat_map (bmem H enc) mems') max_decoys = Val kvs1 /\
    shuffle_top E kvs1 = flat_map (bmem H enc) m1 /\
    (forall k, In k (map fst m1) -> k = "_sd" \/ In k (map fst mems')) /\
    wf H enc (AObj m1) /\ hdigs H enc (AObj m1) = hdigs H enc (AObj mems') /\
    NoDup (alldigs H enc (AObj m1)) /\
    aheight (AObj m1) <= Nat.max (aheight (AObj mems')) 3 /\
    flat_map (pmem H enc Rall) m1 = flat_map (pmem H enc Rall) mems' /\
    (forall g p, NodePath H enc Wire.show_nat g (AObj mems') p -> NodePath H enc Wire.show_nat g (AObj m1) p).
Proof using hash_inj perm_ok.
  intros Hw Hnda HndD Hdfresh.
  destruct (root_form H enc mems' Hw) as (pre & o & post & -> & Hcut).
  set (o1 := decoyed max_decoys o). set (o2 := option_map shuffled o1).
  exists (pre ++ opt_sd o2 ++ post)%list, (flat_map (bmem H enc) (pre ++ opt_sd o1 ++ post)).
  split; [apply decoy_stage_root; assumption|]. split; [apply shuffle_top_root; assumption|].
  (* the new root list holds the old one and the decoys, in some order; there is one if there was one *)
  assert (Hl2 : Permutation (sd_list o2) (sd_list o ++ decoys_used max_decoys)).
  { rewrite <- sd_list_decoyed. fold o1. unfold o2. destruct o1 as [l|]; [apply shuffled_spec|reflexivity]. }
  assert (Hnone : o2 = None -> o = None).
  { destruct o as [l|]; [|reflexivity]. unfold o2, o1, decoyed. destruct max_decoys as [m|]; [destruct (0 <? m)%Z|]; discriminate. }
  split.
  { intros k Hk. rewrite !map_app in Hk |- *. apply in_app_or in Hk as [Hk|Hk]; [right; apply in_or_app; left; exact Hk|].
    apply in_app_or in Hk as [Hk|Hk]; [left|right; apply in_or_app; right; apply in_or_app; right; exact Hk].
    destruct o2; [destruct Hk as [<-|[]]; reflexivity|destruct Hk]. }
  split.
  { apply (wf_root H enc pre post o o2 Hcut Hw Hnone). intros x Hx.
    eapply Permutation_in; [symmetry; exact Hl2|]. apply in_or_app. left. exact Hx. }
  split; [rewrite !(hdigs_root H enc); reflexivity|].
  split.
  { eapply Permutation_NoDup; [symmetry; apply (alldigs_root H enc)|].
    eapply Permutation_NoDup; [apply Permutation_app_tail; symmetry; exact Hl2|].
    eapply Permutation_NoDup; [rewrite <- app_assoc; apply Permutation_app_swap_app|].
    apply NoDup_app_intro; [exact HndD|eapply Permutation_NoDup; [apply (alldigs_root H enc)|exact Hnda]|].
    intros g HgD Hg. apply (Hdfresh g HgD). eapply Permutation_in; [symmetry; apply (alldigs_root H enc)|exact Hg]. }
  split.
  { rewrite (aheight_root pre post o2), (aheight_root pre post o). apply Nat.max_lub; [rewrite <- !Nat.le_max_l; reflexivity|].
    destruct o2; [apply Nat.le_max_r|apply Nat.le_0_l]. }
  split; [rewrite !(pmems_root H enc); reflexivity|].
  intros g p Hn. eapply NodePath_members; [exact Hw| |exact Hn]. intros m Hm Hk.
  apply in_app_or in Hm as [Hm|Hm]; [apply in_or_app; left; exact Hm|]. apply in_or_app. right.
  apply in_app_or in Hm as [Hm|Hm]; [|apply in_or_app; right; exact Hm].
  destruct o; [destruct Hm as [<-|[]]; destruct Hk|destruct Hm].
Qed.

(* _sd_alg and, with key binding, cnf enter the payload as plain claims *)
Lemma claims_stage (m1 : amems) (cnf : option json) (n : nat) :
  wf H enc (AObj m1) -> ~ In "_sd_alg" (map fst m1) -> aheight (AObj m1) <= n -> 2 <= n ->
  (match cnf with Some c => ~ In "cnf" (map fst m1) /\ jwf c /\ S (aheight (embed c)) <= n | None => True end) ->
  exists m3,
    keeps H enc n m1 m3 /\
    flat_map (bmem H enc) m3 = with_cnf cnf (obj_insert "_sd_alg" (JStr "sha-256") (flat_map (bmem H enc) m1)) /\
    (forall R, flat_map (pmem H enc R) m3 = with_cnf cnf (obj_insert "_sd_alg" (JStr "sha-256") (flat_map (pmem H enc R) m1))).
Proof.
  intros Hw Halg Hh Hn Hc.
  destruct (fresh_claim H enc "_sd_alg" (JStr "sha-256") m1 n Hw Hh) as (m2 & K2 & Hb2 & Hp2 & Hk2);
    [constructor; exact I|exact Hn|exact Halg|discriminate|discriminate|].
  unfold with_cnf. destruct cnf as [c|]; [|exists m2; auto].
  destruct Hc as (Hcnf & Hjc & Hhc).
  destruct (fresh_claim H enc "cnf" c m2 n (keeps_wf _ _ _ _ _ K2) (keeps_height _ _ _ _ _ K2) Hjc Hhc) as (m3 & K3 & Hb3 & Hp3 & _);
    [|discriminate|discriminate|].
  { intros Hin. destruct (Hk2 _ Hin) as [Hq|Hin1]; [discriminate|exact (Hcnf Hin1)]. }
  exists m3. split; [exact (keeps_trans H enc n m1 m2 m3 K2 K3)|].
  split; [rewrite Hb3, Hb2; reflexivity|intros R; rewrite Hp3, Hp2; reflexivity].
Qed.

(* Issuer::encode along its success path *)
Lemma issue_steps ckvs paths max_decoys cnf header kvs ds kvs1 jwt :
  has_reserved true (JObj ckvs) = false -> (match cnf with Some _ => jhas_ "cnf" (JObj ckvs) | None => false end) = false ->
  Issuer2.issue_fold E (JObj ckvs) paths (ie_salts E) = Ok (JObj kvs, ds) -> ds <> [] ->
  decoy_stage kvs max_decoys = Val kvs1 ->
  ie_sign E header (JObj (with_cnf cnf (obj_insert "_sd_alg" (JStr "sha-256") (shuffle_top E kvs1)))) = Val jwt ->
  issue E (JObj ckvs) paths max_decoys cnf header =
  Val (serialise_token jwt ds, JObj (with_cnf cnf (obj_insert "_sd_alg" (JStr "sha-256") (shuffle_top E kvs1))), ds).
Proof.
  intros Hres Hnc Hf Hne Hdec Hsign. unfold issue. cbn [is_object]. unfold issue_obj. rewrite Hres, Hnc, Hf. cbn [of_res obind]. fold (decoy_stage kvs max_decoys). rewrite Hdec. cbn [obind].
  destruct ds as [|d dr]; [contradiction Hne; reflexivity|]. fold (with_cnf cnf (obj_insert "_sd_alg" (JStr "sha-256") (shuffle_top E kvs1))).
  rewrite Hsign. reflexivity.
Qed.

(* Holder::verify on a token as the issuer serialises it, along its success path *)
Lemma holder_verify_steps jwt (ds : list disc) header payload claims ps :
  Forall (fun x => contains tilde x = false) (jwt :: map d_str ds) ->
  o_jwt O jwt = Val (header, payload) -> jget "_sd_alg" payload = JStr "sha-256" ->
  restore_disclosures H (o_dec O) Wire.show_nat payload (map d_str ds) = Ok (claims, ps) ->
  holder_verify O (serialise_token jwt ds) = Val (header, remove_digests claims, ps).
Proof.
  intros Htilde Hjwt Halg Hres. apply declared_halg_str in Halg.
  assert (Hraw : holder_verify_raw O (serialise_token jwt ds) = Val (header, payload, map d_str ds)).
  { apply holder_verify_raw_iff. exists jwt, SHA256. split; [exact (token_framing E jwt ds Htilde)|]. split; assumption. }
  unfold holder_verify. rewrite Hraw. cbn [obind]. rewrite (restore_and_strip_alg O _ _ SHA256 Halg), hash_is, Hres. reflexivity.
Qed.

(* Holder::verify when the payload is the blinded form of a tree whose hidden nodes are those of the disclosures *)
Lemma holder_stage (m : amems) jwt header ds salts :
  wf H enc (AObj m) -> NoDup (alldigs H enc (AObj m)) -> aheight (AObj m) <= 129 ->
  Forall2 (T1j.made_with H enc) ds salts -> NoDup salts ->
  Forall (fun d => forall name, d_key d = Some name -> reserved name = false) ds ->
  Permutation (hdigs H enc (AObj m)) (map d_digest ds) ->
  obj_get "_sd_alg" (flat_map (bmem H enc) m) = Some (JStr "sha-256") ->
  ie_sign E header (JObj (flat_map (bmem H enc) m)) = Val jwt -> contains tilde jwt = false ->
  exists ps,
    holder_verify O (serialise_token jwt ds) =
      Val (header, JObj (filter (fun kv => negb (String.eqb (fst kv) "_sd_alg")) (flat_map (pmem H enc Rall) m)), ps) /\
    Permutation (map snd ps) ds /\
    Forall (fun pd : dpath => NodePath H enc Wire.show_nat (d_digest (snd pd)) (AObj m) (fst pd)) ps.
Proof.
  intros Hw Hnda Hh Hmade Hnds Hnames Hhd Halg Hsign Hjt.
  destruct (restore_all_made H enc (o_dec O) Wire.show_nat hash_inj dec_enc (AObj m) ds salts Hw Hnda Hh Hmade Hnds Hnames Hhd)
    as (ps & Hps & Hrest).
  exists ps. split; [|exact Hrest].
  rewrite (holder_verify_steps jwt ds header (blind H enc (AObj m)) (view H enc Rall (AObj m)) ps).
  - rewrite (remove_digests_view H enc (AObj m) Hw). reflexivity.
  - constructor; [exact Hjt|]. apply Forall_forall. intros x Hx. apply in_map_iff in Hx as [d [<- Hd]].
    destruct (Forall2_In_l _ ds salts d Hmade Hd) as (salt & _ & Hmw). destruct (mk_disc_salt H enc d salt Hmw) as (rest & -> & _).
    apply enc_no_tilde.
  - exact (jwt_round _ _ _ Hsign).
  - unfold jget. cbn [blind]. fold (bmem H enc). rewrite Halg. reflexivity.
  - exact Hps.
Qed.

(* where hidden digests are distinct a node has one path, so a report that lists each disclosure at a path of its
   node lists it at any path its node is known by *)
Lemma reported_at_every_path (t : atree) (ds : list disc) (ps : list dpath) (addrs : list addr) :
  NoDup (hdigs H enc t) -> Permutation (map snd ps) ds ->
  Forall (fun pd : dpath => NodePath H enc Wire.show_nat (d_digest (snd pd)) t (fst pd)) ps ->
  Forall2 (fun d a => NodePath H enc Wire.show_nat (d_digest d) t (render Wire.show_nat a)) ds addrs ->
  Forall2 (fun d a => In (render Wire.show_nat a, d) ps) ds addrs.
Proof using hash_inj.
  intros Hndh Hperm Hnps. apply Forall2_impl_In. intros d a Hd Hn.
  assert (Hd' : In d (map snd ps)) by (eapply Permutation_in; [symmetry; exact Hperm|exact Hd]).
  apply in_map_iff in Hd' as [[p d'] [Hq Hpd]]. cbn in Hq. subst d'.
  rewrite Forall_forall in Hnps. pose proof (Hnps _ Hpd) as Hn2. cbn [fst snd] in Hn2.
  rewrite (NodePath_fun H enc Wire.show_nat hash_inj _ t _ _ Hndh Hn Hn2). exact Hpd.
Qed.

(* paths <> []: encode writes _sd_alg only when there is a disclosure (issuer.rs, !disclosures.is_empty()); the
   statement is for that case, where the payload names its algorithm. *)
Lemma encode_holder_core
    (ckvs : list (string * json)) (paths : list string) tks (t' : atree)
    (max_decoys : option Z) (cnf : option json) (header : json) :
  jwf (JObj ckvs) -> ~ In "_sd_alg" (map fst ckvs) -> (match cnf with Some _ => ~ In "cnf" (map fst ckvs) | None => True end) ->
  NoDup (ie_salts E) -> paths <> [] -> split_paths paths = Some tks ->
  T1j.mark_fold H enc Issuer2.parse_index Issuer2.parse_usize (ie_pos E) (embed (JObj ckvs)) tks (ie_salts E) = Some t' ->
  NoDup (decoys_used max_decoys) ->
  (forall g, In g (decoys_used max_decoys) -> ~ In g (alldigs H enc t')) ->   (* fresh decoy draws *)
  (match cnf with Some c => jwf c /\ S (aheight (embed c)) <= 129 | None => True end) ->
  aheight t' <= 129 ->
  exists token payload ds ps,
    issue E (JObj ckvs) paths max_decoys cnf header = Val (token, payload, ds) /\
    holder_verify O token = Val (header, match cnf with Some c => JObj (obj_insert "cnf" c ckvs) | None => JObj ckvs end, ps) /\
    Permutation (map snd ps) ds /\
    forall addrs,
      Forall2 (fun p a => jresolve Issuer2.parse_index Issuer2.parse_usize (fst p) (snd p) (JObj ckvs) = Some a) tks addrs ->
      ordered addrs -> Forall2 (fun d a => In (render Wire.show_nat a, d) ps) ds addrs.
Proof.
  intros HC Hnalg Hncnf Hnds Hpne Hsp Hm HndD Hdfresh Hcnf Hh.
  destruct (fold_of_claims H enc Issuer2.parse_index Issuer2.parse_usize (ie_pos E) (JObj ckvs) tks (ie_salts E) t' HC Hm)
    as (ds & Hf & Hw' & Hproj & Hq1 & Hq2 & Hmade & Hnames).
  destruct (proj_obj_inv H enc Rall t' ckvs Hw' Hproj) as [mems' ->]. rewrite proj_obj in Hproj. injection Hproj as Hpm.
  pose proof (NoDup_firstn' (List.length tks) (ie_salts E) Hnds) as Hnds'.
  pose proof (made_digests_distinct H enc (o_dec O) hash_inj dec_enc ds _ Hmade Hnds') as Hndd.
  assert (Hnda' : NoDup (alldigs H enc (AObj mems'))) by (eapply Permutation_NoDup; [symmetry; exact Hq2|exact Hndd]).
  (* Issuer2 runs this fold on the path strings; a non-empty path list gives at least one disclosure *)
  pose proof Hf as Hf2. rewrite <- (issue_fold_issuer2 E paths tks (JObj ckvs) (ie_salts E) Hsp) in Hf2.
  assert (Hdsne : ds <> []).
  { intros ->. apply Hpne, length_zero_iff_nil. symmetry. exact (issue_fold_length E _ _ _ _ _ Hf2). }
  (* decoys and shuffle, then _sd_alg and cnf: the tree whose blinded form is signed *)
  destruct (root_stage mems' max_decoys Hw' Hnda' HndD Hdfresh) as (m1 & kvs1 & Hst1 & Hst2 & Hkeys1 & Hw1 & Hhd1 & Hnda1 & Hht1 & Hp1 & Hnp1).
  assert (Hfresh : forall k, k <> "_sd" -> ~ In k (map fst ckvs) -> ~ In k (map fst m1)).
  { intros k Hk Hn Hin. destruct (Hkeys1 _ Hin) as [->|Hin1]; [exact (Hk eq_refl)|].
    destruct (keys_opened H enc Rall mems' k (fun _ => eq_refl) Hw' Hin1) as [->|Hin2]; [exact (Hk eq_refl)|].
    rewrite Hpm in Hin2. exact (Hn Hin2). }
  destruct (claims_stage m1 cnf 129 Hw1) as (m3 & K3 & Hb3 & Hp3);
    [apply Hfresh; [discriminate|exact Hnalg]| |apply Nat.leb_le; reflexivity| |].
  { etransitivity; [exact Hht1|]. apply Nat.max_lub; [exact Hh|apply Nat.leb_le; reflexivity]. }
  { destruct cnf as [c|]; [|exact I]. split; [apply Hfresh; [discriminate|exact Hncnf]|exact Hcnf]. }
  rewrite <- Hst2 in Hb3. specialize (Hp3 Rall). rewrite Hp1, Hpm in Hp3.
  destruct (sign_total header (JObj (flat_map (bmem H enc) m3))) as (jwt & Hsign & Hjt).
  assert (Hissue : issue E (JObj ckvs) paths max_decoys cnf header = Val (serialise_token jwt ds, JObj (flat_map (bmem H enc) m3), ds)).
  { rewrite Hb3 in Hsign |- *. apply (issue_steps ckvs paths max_decoys cnf header (flat_map (bmem H enc) mems') ds kvs1 jwt); try assumption.
    - apply has_reserved_top; assumption.
    - destruct cnf as [c|]; [|reflexivity]. unfold jhas_. rewrite (T2b.obj_get_none "cnf" ckvs Hncnf). reflexivity. }
  (* Holder::verify restores on that tree: its hidden nodes are those of the fold *)
  destruct K3 as [Hw3 Hht3 Hh3 Ha3 Hi3].
  assert (Hhd3 : Permutation (hdigs H enc (AObj m3)) (map d_digest ds)) by (rewrite Hhd1 in Hh3; exact (Permutation_trans Hh3 Hq1)).
  assert (Hnda3 : NoDup (alldigs H enc (AObj m3))) by (eapply Permutation_NoDup; [symmetry; exact Ha3|exact Hnda1]).
  assert (Halg : obj_get "_sd_alg" (flat_map (bmem H enc) m3) = Some (JStr "sha-256")).
  { rewrite Hb3. unfold with_cnf. destruct cnf; [rewrite obj_get_insert_other by discriminate|]; apply obj_get_insert_same. }
  destruct (holder_stage m3 jwt header ds _ Hw3 Hnda3 Hht3 Hmade Hnds' Hnames Hhd3 Halg Hsign Hjt) as (ps & Hv & Hperm & Hnps).
  exists (serialise_token jwt ds), (JObj (flat_map (bmem H enc) m3)), ds, ps.
  split; [exact Hissue|]. split.
  { rewrite Hv, Hp3, filter_with_cnf by (discriminate || exact Hnalg). unfold with_cnf. destruct cnf; reflexivity. }
  split; [exact Hperm|]. intros addrs HF Hord.
  (* the i-th disclosure of the fold hides the node at the i-th address, and that node keeps its path up to the
     tree that is signed *)
  destruct (issue_fold_paths H enc Wire.show_nat Issuer2.parse_index Issuer2.parse_usize (ie_pos E) tks addrs (ie_salts E)
              (embed (JObj ckvs)) (AObj mems') (wf_embed H enc _ HC)) as (ds' & Hf' & Hnp'); [|exact Hord|exact Hm|].
  { eapply Forall2_impl_In; [|exact HF]. intros p a _ Hq. rewrite resolve_embed. exact Hq. }
  rewrite (blind_embed H enc), Hf in Hf'. injection Hf' as <-.
  apply (reported_at_every_path (AObj m3)); [eapply Permutation_NoDup; [symmetry; exact Hhd3|exact Hndd]|exact Hperm|exact Hnps|].
  eapply Forall2_impl_In; [|exact Hnp']. intros d a _ Hn.
  eapply NodePath_members; [exact Hw1| |exact (Hnp1 _ _ Hn)]. intros m Hin _. exact (Hi3 _ Hin).
Qed.

Theorem encode_then_holder_verify
    (ckvs : list (string * json)) (paths : list string) tks (t' : atree)
    (max_decoys : option Z) (cnf : option json) (header : json) :
  jwf (JObj ckvs) -> ~ In "_sd_alg" (map fst ckvs) -> ~ In "cnf" (map fst ckvs) ->
  NoDup (ie_salts E) -> paths <> [] -> split_paths paths = Some tks ->
  T1j.mark_fold H enc Issuer2.parse_index Issuer2.parse_usize (ie_pos E) (embed (JObj ckvs)) tks (ie_salts E) = Some t' ->
  NoDup (decoys_used max_decoys) ->
  (forall g, In g (decoys_used max_decoys) -> ~ In g (alldigs H enc t')) ->   (* fresh decoy draws *)
  (match cnf with Some c => jwf c /\ S (aheight (embed c)) <= 129 | None => True end) ->
  aheight t' <= 129 ->
  exists token payload ds ps,
    issue E (JObj ckvs) paths max_decoys cnf header = Val (token, payload, ds) /\
    holder_verify O token = Val (header, match cnf with Some c => JObj (obj_insert "cnf" c ckvs) | None => JObj ckvs end, ps).
Proof.
  intros HC Hnalg Hncnf Hnds Hpne Hsp Hm HndD Hdfresh Hcnf Hh.
  destruct (encode_holder_core ckvs paths tks t' max_decoys cnf header HC Hnalg (match cnf with Some _ => Hncnf | None => I end) Hnds Hpne Hsp Hm HndD Hdfresh Hcnf Hh)
    as (token & payload & ds & ps & H1 & H2 & _). exists token, payload, ds, ps. split; assumption.
Qed.

(* the path component: the holder is told one path per disclosure, and the i-th disclosure of the issuer is
   reported at the rendered address of the i-th path the issuer was given *)
Theorem encode_then_holder_verify_paths
    (ckvs : list (string * json)) (paths : list string) tks (addrs : list addr) (t' : atree)
    (max_decoys : option Z) (cnf : option json) (header : json) :
  jwf (JObj ckvs) -> ~ In "_sd_alg" (map fst ckvs) -> ~ In "cnf" (map fst ckvs) ->
  NoDup (ie_salts E) -> paths <> [] -> split_paths paths = Some tks ->
  Forall2 (fun p a => jresolve Issuer2.parse_index Issuer2.parse_usize (fst p) (snd p) (JObj ckvs) = Some a) tks addrs ->
  ordered addrs ->
  T1j.mark_fold H enc Issuer2.parse_index Issuer2.parse_usize (ie_pos E) (embed (JObj ckvs)) tks (ie_salts E) = Some t' ->
  NoDup (decoys_used max_decoys) ->
  (forall g, In g (decoys_used max_decoys) -> ~ In g (alldigs H enc t')) ->
  (match cnf with Some c => jwf c /\ S (aheight (embed c)) <= 129 | None => True end) ->
  aheight t' <= 129 ->
  exists token payload ds ps,
    issue E (JObj ckvs) paths max_decoys cnf header = Val (token, payload, ds) /\
    holder_verify O token = Val (header, match cnf with Some c => JObj (obj_insert "cnf" c ckvs) | None => JObj ckvs end, ps) /\
    Permutation (map snd ps) ds /\
    Forall2 (fun d a => In (render Wire.show_nat a, d) ps) ds addrs.
Proof.
  intros HC Hnalg Hncnf Hnds Hpne Hsp HF Hord Hm HndD Hdfresh Hcnf Hh.
  destruct (encode_holder_core ckvs paths tks t' max_decoys cnf header HC Hnalg (match cnf with Some _ => Hncnf | None => I end) Hnds Hpne Hsp Hm HndD Hdfresh Hcnf Hh)
    as (token & payload & ds & ps & H1 & H2 & Hperm & Hat).
  exists token, payload, ds, ps. split; [assumption|]. split; [assumption|]. split; [assumption|]. exact (Hat addrs HF Hord).
Qed.

(* C14 "valid => Ok", composed with the round trip: every marking whose paths resolve in the claims and are
   listed descendants-before-ancestors without repeats is accepted; and then encode / Holder::verify behave
   as in encode_then_holder_verify. *)
Theorem valid_marking_issues
    (ckvs : list (string * json)) (paths : list string) tks (addrs : list addr)
    (max_decoys : option Z) (cnf : option json) (header : json) :
  jwf (JObj ckvs) -> ~ In "_sd_alg" (map fst ckvs) -> ~ In "cnf" (map fst ckvs) ->
  NoDup (ie_salts E) -> paths <> [] -> split_paths paths = Some tks ->
  Forall2 (fun p a => jresolve Issuer2.parse_index Issuer2.parse_usize (fst p) (snd p) (JObj ckvs) = Some a) tks addrs ->
  ordered addrs -> List.length tks <= List.length (ie_salts E) ->
  exists t',
    T1j.mark_fold H enc Issuer2.parse_index Issuer2.parse_usize (ie_pos E) (embed (JObj ckvs)) tks (ie_salts E) = Some t' /\
    (NoDup (decoys_used max_decoys) ->
     (forall g, In g (decoys_used max_decoys) -> ~ In g (alldigs H enc t')) ->
     (match cnf with Some c => jwf c /\ S (aheight (embed c)) <= 129 | None => True end) ->
     aheight t' <= 129 ->
     exists token payload ds ps,
       issue E (JObj ckvs) paths max_decoys cnf header = Val (token, payload, ds) /\
       holder_verify O token = Val (header, match cnf with Some c => JObj (obj_insert "cnf" c ckvs) | None => JObj ckvs end, ps)).
Proof.
  intros HC Hnalg Hncnf Hnds Hpne Hsp HF Hord Hlen.
  destruct (valid_marking_accepted H enc Issuer2.parse_index Issuer2.parse_usize (ie_pos E) (JObj ckvs) tks addrs (ie_salts E) HC HF Hord Hlen) as [t' Hm].
  exists t'. split; [exact Hm|]. intros HndD Hfresh Hcnf Hh.
  exact (encode_then_holder_verify ckvs paths tks t' max_decoys cnf header HC Hnalg Hncnf Hnds Hpne Hsp Hm HndD Hfresh Hcnf Hh).
Qed.
End P.
