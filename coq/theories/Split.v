(* The splitters of utils.rs as total functions on strings (split_on, sd_jwt_parts, drop_kb, serialise): the
   specification that the checked versions of SplitM.v are compared with. Also the facts about string append and
   length that the other files share. *)
From Coq Require Import List String Ascii Bool Arith Lia.
Import ListNotations.
Local Open Scope string_scope.

(* Rust: s.split(sep).collect::<Vec<&str>>() - never empty *)
Fixpoint split_on (sep : ascii) (s : string) : list string :=
  match s with
  | EmptyString => [EmptyString]
  | String c r =>
      if Ascii.eqb c sep then EmptyString :: split_on sep r
      else match split_on sep r with
           | [] => [String c EmptyString]
           | h :: t => String c h :: t
           end
  end.

Fixpoint join (sep : string) (l : list string) : string :=
  match l with
  | [] => ""
  | [x] => x
  | x :: r => x ++ sep ++ join sep r
  end.

Fixpoint contains (sep : ascii) (s : string) : bool :=
  match s with EmptyString => false | String c r => Ascii.eqb c sep || contains sep r end.

Lemma split_on_nonempty sep s : split_on sep s <> [].
Proof. destruct s as [|c r]; cbn; [discriminate|]. destruct (Ascii.eqb c sep); [discriminate|]. destruct (split_on sep r); discriminate. Qed.

Lemma split_no_sep sep s : contains sep s = false -> split_on sep s = [s].
Proof.
  induction s as [|c r IH]; cbn; [reflexivity|]. intros Hc. apply orb_false_iff in Hc as [Hc1 Hc2].
  rewrite Hc1, IH by assumption. reflexivity.
Qed.

Lemma split_app_sep sep a b : contains sep a = false ->
  split_on sep (a ++ String sep b) = a :: split_on sep b.
Proof.
  induction a as [|c r IH]; cbn; intros Hc.
  - rewrite Ascii.eqb_refl. reflexivity.
  - apply orb_false_iff in Hc as [Hc1 Hc2]. rewrite Hc1, IH by assumption. reflexivity.
Qed.

Lemma split_join sep l : l <> [] -> Forall (fun x => contains sep x = false) l ->
  split_on sep (join (String sep "") l) = l.
Proof.
  induction l as [|x r IH]; [congruence|]. intros _ HF. inversion HF as [|? ? Hx Hr]; subst.
  destruct r as [|y r'].
  - cbn. apply split_no_sep. assumption.
  - change (join (String sep "") (x :: y :: r')) with (x ++ String sep (join (String sep "") (y :: r'))).
    rewrite split_app_sep by assumption. f_equal. apply IH; [discriminate|assumption].
Qed.

Lemma join_split sep s : join (String sep "") (split_on sep s) = s.
Proof.
  induction s as [|c r IH]; [reflexivity|]. cbn [split_on].
  destruct (Ascii.eqb_spec c sep) as [->|Hne].
  - pose proof (split_on_nonempty sep r). destruct (split_on sep r) as [|h t] eqn:E; [contradiction|].
    change (join (String sep "") ("" :: h :: t)) with ("" ++ String sep (join (String sep "") (h :: t))).
    rewrite IH. reflexivity.
  - pose proof (split_on_nonempty sep r). destruct (split_on sep r) as [|h t] eqn:E; [contradiction|].
    destruct t as [|h2 t2]; cbn in IH |- *; rewrite <- IH; reflexivity.
Qed.

Definition tilde : ascii := "~"%char.

Definition sd_jwt_parts (s : string) : string * list string * option string :=
  let parts := split_on tilde s in
  match parts with
  | [] | [_] => (s, [], None)
  | jwt :: rest =>
      let last_ := last rest "" in
      (jwt, removelast rest, if String.eqb last_ "" then None else Some last_)
  end.

Definition drop_kb (s : string) : string :=
  let parts := split_on tilde s in
  match parts with
  | [] | [_] => s
  | _ => join "~" (removelast parts) ++ "~"
  end.

(* serialisation used by issuer and holder *)
Definition serialise (jwt : string) (ds : list string) (kb : string) : string :=
  join "~" (jwt :: ds) ++ "~" ++ kb.

Lemma removelast_app_one {A} (l : list A) x : removelast (l ++ [x]) = l.
Proof. apply removelast_last. Qed.

Lemma append_assoc_ (a b c : string) : (a ++ b) ++ c = a ++ (b ++ c).
Proof. induction a; cbn; congruence. Qed.

Lemma append_nil_r (s : string) : s ++ "" = s.
Proof. induction s; cbn; congruence. Qed.

Lemma len_app (a b : string) : String.length (a ++ b) = String.length a + String.length b.
Proof. induction a as [|x a IH]; [reflexivity|]. cbn. rewrite IH. reflexivity. Qed.

Lemma join_app_one sep l x : l <> [] -> join sep (l ++ [x]) = join sep l ++ sep ++ x.
Proof.
  induction l as [|y r IH]; [congruence|]. intros _. destruct r as [|z r'].
  - reflexivity.
  - change (join sep ((y :: z :: r') ++ [x])) with (y ++ sep ++ join sep ((z :: r') ++ [x])).
    rewrite IH by discriminate. cbn [join]. rewrite !append_assoc_. reflexivity.
Qed.

Theorem parts_of_serialise jwt ds kb :
  Forall (fun x => contains tilde x = false) (jwt :: ds) -> contains tilde kb = false ->
  split_on tilde (serialise jwt ds kb) = (jwt :: ds ++ [kb])%list.
Proof.
  intros HF Hkb. unfold serialise. rewrite <- (join_app_one "~" (jwt :: ds) kb) by discriminate.
  apply split_join; [discriminate|]. apply (Forall_app _ (jwt :: ds) [kb]). split; [assumption|]. constructor; [assumption|constructor].
Qed.

Theorem sd_jwt_parts_serialise jwt ds kb :
  Forall (fun x => contains tilde x = false) (jwt :: ds) -> contains tilde kb = false ->
  sd_jwt_parts (serialise jwt ds kb) = (jwt, ds, if String.eqb kb "" then None else Some kb).
Proof.
  intros HF Hkb. unfold sd_jwt_parts. rewrite parts_of_serialise by assumption.
  cbn [app]. destruct (ds ++ [kb])%list as [|y r] eqn:E; [destruct ds; discriminate|].
  rewrite <- E. rewrite last_last, removelast_last. reflexivity.
Qed.

Theorem drop_kb_serialise jwt ds kb :
  Forall (fun x => contains tilde x = false) (jwt :: ds) -> contains tilde kb = false ->
  drop_kb (serialise jwt ds kb) = serialise jwt ds "".
Proof.
  intros HF Hkb. unfold drop_kb. rewrite parts_of_serialise by assumption.
  destruct ds as [|d r]; [reflexivity|].
  change (jwt :: (d :: r) ++ [kb])%list with (jwt :: d :: (r ++ [kb]))%list. cbv iota beta.
  change (jwt :: d :: (r ++ [kb]))%list with ((jwt :: d :: r) ++ [kb])%list.
  rewrite removelast_last. reflexivity.
Qed.

Lemma serialise_inj jwt ds jwt' ds' :
  Forall (fun x => contains tilde x = false) (jwt :: ds) -> Forall (fun x => contains tilde x = false) (jwt' :: ds') ->
  serialise jwt ds "" = serialise jwt' ds' "" -> jwt = jwt' /\ ds = ds'.
Proof.
  intros H1 H2 Hq. pose proof (parts_of_serialise jwt ds "" H1 eq_refl) as P1. pose proof (parts_of_serialise jwt' ds' "" H2 eq_refl) as P2.
  rewrite Hq in P1. rewrite P1 in P2. injection P2 as -> Hd. split; [reflexivity|]. apply app_inv_tail in Hd. assumption.
Qed.
