(* check_digests (the duplicate/structure walk that follows the pass loop) inserts the digests it meets, in its order,
   into the set it is given, after a check of the structure; on every view of a conformant token it succeeds, given
   the digests of the array elements that were placed. *)
From Coq Require Import List String Bool Lia.
Import ListNotations.
Require Import SDJ.Json SDJ.Model2 SDJ.Restore2 SDJ.ATree SDJ.T2a SDJ.T2c SDJ.T2d SDJ.T2e SDJ.T2f.
Local Open Scope string_scope.

(* what check_digests collects, in its order *)
Definition item_dl (x : json) : list string :=
  match item_digest x with Ok (Some g) => [g] | _ => [] end.

Fixpoint cdigs (j : json) : list string :=
  match j with
  | JObj kvs => (match obj_get "_sd" kvs with Some (JArr xs) => strs_of xs | _ => [] end ++
                 flat_map (fun kv => let '(_, v) := kv in cdigs v) kvs)%list
  | JArr xs => flat_map (fun x => (item_dl x ++ cdigs x)%list) xs
  | _ => [] end.

Lemma existsb_eqb_in g l : existsb (String.eqb g) l = true <-> In g l.
Proof. rewrite existsb_exists. setoid_rewrite String.eqb_eq. split; [intros [x [Hx ->]]; assumption|eauto]. Qed.

Definition fresh (gs seen : list string) : Prop := NoDup gs /\ forall g, In g gs -> ~ In g seen.

Lemma insert_all_iff gs : forall seen s', insert_all gs seen = Ok s' <-> s' = (rev gs ++ seen)%list /\ fresh gs seen.
Proof.
  induction gs as [|g r IH]; intros seen s'; cbn [insert_all rev].
  - cbn [app]. split; [intros [= <-]; split; [reflexivity|split; [constructor|intros ? []]]|intros [-> _]; reflexivity].
  - unfold set_insert. destruct (existsb (String.eqb g) seen) eqn:Ee; cbn [bind].
    + apply existsb_eqb_in in Ee. split; [discriminate|]. intros [_ [_ Hd]]. destruct (Hd g (or_introl eq_refl) Ee).
    + assert (Hg : ~ In g seen) by (rewrite <- existsb_eqb_in, Ee; discriminate).
      rewrite IH, <- app_assoc. cbn [app]. apply and_iff_compat_l. unfold fresh. rewrite NoDup_cons_iff. cbn [In]. split.
      * intros [Hn Hd]. split; [split; [intros Hin; apply (Hd g Hin); left; reflexivity|assumption]|].
        intros x [<-|Hx]; [assumption|]. intros Hs. apply (Hd x Hx). right. assumption.
      * intros [[Hni Hn] Hd]. split; [assumption|]. intros x Hx [<-|Hs]; [contradiction|]. exact (Hd x (or_intror Hx) Hs).
Qed.

Lemma insert_all_ok gs seen : NoDup (gs ++ seen) -> insert_all gs seen = Ok (rev gs ++ seen)%list.
Proof. intros Hnd. apply NoDup_app_iff in Hnd as (Hn & _ & Hd). apply insert_all_iff. split; [reflexivity|split; assumption]. Qed.

Lemma bind_ok_r {A} (x : res A) : bind x (fun a => Ok a) = x.
Proof. destruct x; reflexivity. Qed.
Lemma bind_assoc {A B C} (x : res A) (f : A -> res B) (g : B -> res C) :
  bind (bind x f) g = bind x (fun a => bind (f a) g).
Proof. destruct x; reflexivity. Qed.

Lemma insert_all_app a : forall b seen, insert_all (a ++ b) seen = bind (insert_all a seen) (insert_all b).
Proof.
  induction a as [|g r IH]; intros b seen; [reflexivity|]. cbn [app insert_all]. rewrite bind_assoc.
  destruct (set_insert g seen); [|reflexivity]. cbn [bind]. apply IH.
Qed.

Lemma fold_err {A B} (f : res A -> B -> res A) l : (forall b, f Err b = Err) -> fold_left f l Err = Err.
Proof. intros Hf. induction l as [|x r IH]; [reflexivity|]. cbn. rewrite Hf. exact IH. Qed.

(* what check_digests demands of the structure, within the nesting budget n: every _sd is an array and every array element
   that has a "..." member has no other *)
Definition item_digest_ok (x : json) : bool := match item_digest x with Ok _ => true | Err => false end.
Definition sd_ok_b (kvs : list (string * json)) : bool :=
  match obj_get "_sd" kvs with Some (JArr _) | None => true | Some _ => false end.
Fixpoint cleanb (n : nat) (j : json) : bool :=
  match n with
  | O => false
  | S n => match j with
           | JObj kvs => sd_ok_b kvs && forallb (fun kv => let '(_, v) := kv in cleanb n v) kvs
           | JArr xs => forallb (fun x => item_digest_ok x && cleanb n x) xs
           | _ => true end
  end.

Lemma fold_insert {A} (f : res (list string) -> A -> res (list string)) (ok : A -> bool) (c : A -> list string) l :
  (forall acc x, f acc x = do s <- acc; if ok x then insert_all (c x) s else Err) ->
  forall acc, fold_left f l acc = do s <- acc; if forallb ok l then insert_all (flat_map c l) s else Err.
Proof.
  intros Hf. induction l as [|x r IH]; intros acc; [symmetry; apply bind_ok_r|].
  cbn [fold_left forallb flat_map]. rewrite IH, Hf. destruct acc as [s|]; [cbn [bind]|reflexivity].
  destruct (ok x); [cbn [andb]|reflexivity].
  destruct (forallb ok r); [rewrite insert_all_app; reflexivity|destruct (insert_all (c x) s); reflexivity].
Qed.

Theorem check_digests_eq : forall n j seen,
  check_digests n j seen = if cleanb n j then insert_all (cdigs j) seen else Err.
Proof.
  induction n as [|n IH]; intros j seen; [reflexivity|].
  destruct j as [| b | l | s | xs | kvs]; try reflexivity; cbn [check_digests cleanb cdigs].
  - rewrite (fold_insert _ (fun x => item_digest_ok x && cleanb n x) (fun x => (item_dl x ++ cdigs x)%list)); [reflexivity|].
    intros acc x. destruct acc as [s|]; [cbn [bind]|reflexivity].
    unfold item_digest_ok, item_dl. destruct (item_digest x) as [[g|]|]; cbn [bind andb app]; [|apply IH|reflexivity].
    cbn [insert_all]. destruct (set_insert g s) as [s1|]; cbn [bind]; [apply IH|destruct (cleanb n x); reflexivity].
  - pose proof (fold_insert (fun acc (kv : string * json) => let '(_, v) := kv in do s <- acc; check_digests n v s)
                  (fun kv => let '(_, v) := kv in cleanb n v) (fun kv => let '(_, v) := kv in cdigs v) kvs) as Hfold.
    rewrite insert_all_app. unfold sd_ok_b.
    destruct (obj_get "_sd" kvs) as [[| | | |xs|]|]; cbn [bind andb insert_all]; try reflexivity.
    + destruct (insert_all (strs_of xs) seen) as [s1|]; cbn [bind]; [|destruct (forallb _ kvs); reflexivity].
      rewrite Hfold; [reflexivity|]. intros acc [k v]. destruct acc; [apply IH|reflexivity].
    + rewrite Hfold; [reflexivity|]. intros acc [k v]. destruct acc; [apply IH|reflexivity].
Qed.

Lemma sdwf_item_digest x : sdwf x = true -> item_digest_ok x = true.
Proof.
  intros Hs. unfold item_digest_ok. destruct x; try reflexivity. rewrite sdwf_obj in Hs. apply andb_true_iff in Hs as [Hs _].
  unfold item_digest. destruct (obj_get "..." kvs); [|reflexivity]. rewrite Hs. reflexivity.
Qed.

Lemma sdwf_cleanb : forall n j, sdwf j = true -> height j <= n -> cleanb n j = true.
Proof.
  induction n as [|n IH]; intros j Hs Hh; [destruct j; cbn in Hh; lia|].
  destruct j as [| b | l | s | xs | kvs]; try reflexivity; cbn [cleanb]; rewrite ?height_arr, ?height_obj in Hh; apply le_S_n in Hh.
  - cbn [sdwf] in Hs. rewrite forallb_forall in Hs |- *. intros x Hx. pose proof (hmax_in height _ _ Hx).
    rewrite sdwf_item_digest, IH by (auto || lia). reflexivity.
  - rewrite sdwf_obj in Hs. apply andb_true_iff in Hs as [_ Hs]. rewrite forallb_forall in Hs. apply andb_true_iff. split.
    + unfold sd_ok_b. destruct (obj_get "_sd" kvs) as [sd|] eqn:Eg; [|reflexivity].
      apply obj_get_in, Hs in Eg. cbn in Eg. destruct sd; try discriminate. reflexivity.
    + apply forallb_forall. intros [k v] Hin. pose proof (hmax_in (fun kv : string * json => let '(_, v) := kv in height v) _ _ Hin) as Hm. cbn beta iota in Hm.
      apply Hs, andb_true_iff in Hin as [_ Hv]. apply IH; [assumption|lia].
Qed.

Corollary check_digests_ok n j seen :
  sdwf j = true -> height j <= n -> NoDup (cdigs j ++ seen) -> exists seen', check_digests n j seen = Ok seen'.
Proof. intros Hs Hh Hnd. rewrite check_digests_eq, sdwf_cleanb by assumption. eexists. apply insert_all_ok. assumption. Qed.

Definition cnt (g : string) (l : list string) : nat := count_occ string_dec l g.

Lemma cnt_app g a b : cnt g (a ++ b) = cnt g a + cnt g b.
Proof. unfold cnt. apply count_occ_app. Qed.
Lemma cnt_nil g : cnt g [] = 0.
Proof. reflexivity. Qed.
Lemma cnt_cons g x l : cnt g (x :: l) = (if string_dec x g then 1 else 0) + cnt g l.
Proof. unfold cnt. cbn. destruct (string_dec x g); reflexivity. Qed.
Lemma cnt_in g l : In g l -> 1 <= cnt g l.
Proof. unfold cnt. intros Hin. apply (count_occ_In string_dec) in Hin. lia. Qed.
Lemma cnt_nodup g l : NoDup l -> cnt g l <= 1.
Proof. unfold cnt. intros Hnd. apply (proj1 (NoDup_count_occ string_dec l) Hnd). Qed.
Lemma cnt_zero_notin g l : cnt g l = 0 -> ~ In g l.
Proof. unfold cnt. intros Hz Hin. apply (count_occ_In string_dec) in Hin. lia. Qed.
Lemma nodup_of_cnt l : (forall g, cnt g l <= 1) -> NoDup l.
Proof. intros Hc. apply (proj2 (NoDup_count_occ string_dec l)). exact Hc. Qed.

Lemma cnt_flat_map_in {A} g (f : A -> list string) l x : In x l -> cnt g (f x) <= cnt g (flat_map f l).
Proof.
  induction l as [|y r IH]; [intros []|]. intros [->|Hin]; cbn [flat_map]; rewrite cnt_app; [lia|]. specialize (IH Hin). lia.
Qed.

Lemma cnt_flat_map_le {A} g (f h : A -> list string) l :
  (forall x, In x l -> cnt g (f x) <= cnt g (h x)) -> cnt g (flat_map f l) <= cnt g (flat_map h l).
Proof.
  induction l as [|x r IH]; intros Hp; [cbn; lia|]. cbn [flat_map]. rewrite !cnt_app.
  pose proof (Hp x (or_introl eq_refl)). specialize (IH (fun y Hy => Hp y (or_intror Hy))). lia.
Qed.

Lemma cnt_flat_map_app {A} g (f1 f2 : A -> list string) l :
  cnt g (flat_map (fun x => (f1 x ++ f2 x)%list) l) = cnt g (flat_map f1 l) + cnt g (flat_map f2 l).
Proof. induction l as [|x r IH]; [reflexivity|]. cbn [flat_map]. rewrite !cnt_app, IH. lia. Qed.

Lemma item_digest_of_placeholder_of j : placeholder_of j = Ok None -> item_digest j = Ok None.
Proof.
  destruct j; try reflexivity. unfold placeholder_of, item_digest. destruct (obj_get "..." kvs); [|reflexivity].
  destruct (Nat.eqb (List.length kvs) 1); discriminate.
Qed.

Lemma cdigs_strs l : cdigs (JArr (map JStr l)) = [].
Proof. cbn [cdigs]. induction l as [|x r IH]; [reflexivity|]. cbn [map flat_map]. rewrite IH. reflexivity. Qed.

Lemma strs_of_strs l : strs_of (map JStr l) = l.
Proof. unfold strs_of. induction l as [|x r IH]; [reflexivity|]. cbn. rewrite IH. reflexivity. Qed.

Section N.
Variable H : string -> string.
Variable enc : list json -> string.
Notation view := (view H enc).
Notation dig_item := (dig_item H enc).
Notation dig_mem := (dig_mem H enc).
Notation alldigs := (alldigs H enc).
Notation wf := (wf H enc).
Notation vitem R := (ATree.view_item H enc (view R) R).
Notation vmem R := (ATree.view_mem H enc (view R) R).
Notation adigs_item := (adigs_item H enc alldigs).
Notation adigs_mem := (adigs_mem alldigs).
Notation Exposed := (Exposed H enc).

(* digests of the hidden array elements that are opened and reachable in the view *)
Fixpoint oitems (R : Rset) (t : atree) : list string :=
  match t with
  | ALeaf _ => []
  | AArr items => flat_map (fun it => let '(k, s) := it in
        match k with
        | IPlain => oitems R s
        | IHid salt => if R (dig_item salt s) then dig_item salt s :: oitems R s else []
        | IDecoy _ => [] end) items
  | AObj mems => flat_map (fun m => let '(name, (k, s)) := m in
        match k with
        | MPlain => oitems R s
        | MHid salt => if R (dig_mem salt name s) then oitems R s else []
        | MSd _ => [] end) mems
  end.

Definition oitem_of (R : Rset) (it : ikind * atree) : list string :=
  let '(k, s) := it in
  match k with
  | IPlain => oitems R s
  | IHid salt => if R (dig_item salt s) then dig_item salt s :: oitems R s else []
  | IDecoy _ => [] end.
Definition omem_of (R : Rset) (m : string * (mkind * atree)) : list string :=
  let '(name, (k, s)) := m in
  match k with
  | MPlain => oitems R s
  | MHid salt => if R (dig_mem salt name s) then oitems R s else []
  | MSd _ => [] end.
Lemma oitems_arr R items : oitems R (AArr items) = flat_map (oitem_of R) items.
Proof. reflexivity. Qed.
Lemma oitems_obj R mems : oitems R (AObj mems) = flat_map (omem_of R) mems.
Proof. reflexivity. Qed.

(* what one member contributes to T2c.sd_of: sd_of mems is flat_map sd_part mems *)
Definition sd_part (m : string * (mkind * atree)) : list string :=
  match fst (snd m) with MSd l => l | _ => [] end.

(* one element, one member: what it shows in the view and what it holds opened is counted among its own digests *)
Lemma cnt_view_item R g it : wf (snd it) ->
  cnt g (cdigs (view R (snd it))) + cnt g (oitems R (snd it)) <= cnt g (alldigs (snd it)) ->
  cnt g (item_dl (vitem R it)) + cnt g (cdigs (vitem R it)) + cnt g (oitem_of R it) <= cnt g (adigs_item it).
Proof.
  destruct it as [k s]. cbn [snd]. intros Hw IH.
  assert (Hnp : item_dl (view R s) = []).
  { unfold item_dl. rewrite item_digest_of_placeholder_of; [reflexivity|]. apply (placeholder_of_view H enc), Hw. }
  (* a placeholder contributes its digest once, as an item digest *)
  assert (Hph : forall g0, cnt g (item_dl (placeholder g0)) + cnt g (cdigs (placeholder g0)) = cnt g [g0]) by (intros g0; cbn; lia).
  destruct k as [|salt|g0]; cbn [ATree.view_item oitem_of T2c.adigs_item].
  - rewrite Hnp, cnt_nil. lia.
  - destruct (R (dig_item salt s)); cbv iota; rewrite ?Hnp, ?Hph, !cnt_cons, ?cnt_nil; lia.
  - rewrite Hph, !cnt_cons, cnt_nil. lia.
Qed.

Lemma cnt_view_mem R g m :
  cnt g (cdigs (view R (snd (snd m)))) + cnt g (oitems R (snd (snd m))) <= cnt g (alldigs (snd (snd m))) ->
  cnt g (flat_map (fun kv : string * json => let '(_, v) := kv in cdigs v) (vmem R m)) + cnt g (omem_of R m) + cnt g (sd_part m) <= cnt g (adigs_mem m).
Proof.
  destruct m as [name [k s]]. cbn [snd]. intros IH.
  destruct k as [|salt|l]; cbn [ATree.view_mem omem_of sd_part T2c.adigs_mem fst snd flat_map].
  - rewrite app_nil_r, cnt_nil. lia.
  - destruct (R (dig_mem salt name s)); cbn [flat_map]; rewrite ?app_nil_r, ?cnt_nil; lia.
  - rewrite cdigs_strs. cbn [app]. rewrite !cnt_nil. lia.
Qed.

Theorem cnt_view R g : forall t, wf t ->
  cnt g (cdigs (view R t)) + cnt g (oitems R t) <= cnt g (alldigs t).
Proof.
  apply wf_ind_in.
  - intros j Hj. destruct j; cbn in *; try tauto; lia.
  - intros items Hw IH.
    rewrite view_arr, oitems_arr, alldigs_arr. cbn [cdigs]. rewrite flat_map_map'.
    rewrite <- cnt_flat_map_app. apply cnt_flat_map_le. intros it Hin. rewrite !cnt_app.
    apply cnt_view_item; [apply (wf_arr_in H enc _ _ Hw Hin)|apply IH, Hin].
  - intros mems Hw IH.
    rewrite view_obj, oitems_obj, alldigs_obj. cbn [cdigs]. rewrite cnt_app, flat_map_flat_map.
    assert (Hle : cnt g (flat_map (fun m => flat_map (fun kv : string * json => let '(_, v) := kv in cdigs v) (vmem R m)) mems) +
                  cnt g (flat_map (omem_of R) mems) + cnt g (flat_map sd_part mems) <= cnt g (flat_map adigs_mem mems)).
    { rewrite <- !cnt_flat_map_app. apply cnt_flat_map_le. intros m Hin. rewrite !cnt_app. exact (cnt_view_mem R g m (IH m Hin)). }
    assert (Hsd : cnt g (match obj_get "_sd" (flat_map (vmem R) mems) with Some (JArr xs) => strs_of xs | _ => [] end) <= cnt g (flat_map sd_part mems)).
    { destruct (obj_get "_sd" (flat_map (vmem R) mems)) as [sd|] eqn:Eg; [|rewrite cnt_nil; lia].
      destruct (sd_get_view H enc R mems sd Hw Eg) as (name & l & s & Hy & ->). rewrite strs_of_strs.
      exact (cnt_flat_map_in g sd_part mems _ Hy). }
    lia.
Qed.

Lemma Exposed_oitems R1 R' g v : forall t,
  Exposed R1 g None v t -> (forall x, R1 x = true -> R' x = true) -> R' g = true -> In g (oitems R' t).
Proof.
  intros t Hex Hmono Hg. induction Hex as [items salt s Hin -> _ _ _ | items ik s Hin Hop _ IH | mems name salt s Hin _ _ Hk _ | mems name mk s Hin Hop _ IH].
  - rewrite oitems_arr. apply in_flat_map. exists (IHid salt, s). split; [assumption|]. cbn. rewrite Hg. left. reflexivity.
  - rewrite oitems_arr. apply in_flat_map. exists (ik, s). split; [assumption|].
    destruct ik as [|salt|g0]; cbn in Hop |- *; [assumption| |discriminate].
    injection Hop as Hop. rewrite (Hmono _ Hop). right. assumption.
  - discriminate.
  - rewrite oitems_obj. apply in_flat_map. exists (name, (mk, s)). split; [assumption|].
    destruct mk as [|salt|l]; cbn in Hop |- *; [assumption| |discriminate].
    injection Hop as Hop. rewrite (Hmono _ Hop). assumption.
Qed.
End N.
