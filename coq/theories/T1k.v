(* C01 (claims part) for the issuer model of the correspondence run: the fold of Issuer2 (path strings, random
   insertion positions) followed by the complete restore_disclosures (passes + duplicate/structure checks) with
   all disclosures, then stripping, gives back the original claims. *)
From Coq Require Import List String.
Import ListNotations.
Require Import SDJ.Json SDJ.Wire SDJ.Model2 SDJ.Restore2 SDJ.ATree SDJ.T2c SDJ.T2h SDJ.T1e SDJ.T1h SDJ.T1j SDJ.Issuer2.
Local Open Scope string_scope.

(* split_paths paths = Some tks says: every path string has a '/', starts with '/', and has no reference token
   "_sd" or "..." (parse_path, repair F20); tks are the unescaped parent tokens and last token of each path *)
Definition split_paths (paths : list string) : option (list (list string * string)) :=
  fold_right (fun p acc => match parse_path p, acc with Some tk, Some r => Some (tk :: r) | _, _ => None end) (Some []) paths.

Lemma split_paths_cons p ps :
  split_paths (p :: ps) = match parse_path p, split_paths ps with Some tk, Some r => Some (tk :: r) | _, _ => None end.
Proof. reflexivity. Qed.

Lemma issue_fold_issuer2 E : forall paths tks claims salts,
  split_paths paths = Some tks ->
  Issuer2.issue_fold E claims paths salts =
  T1j.issue_fold (ie_hash E) (ie_enc E) Issuer2.parse_index Issuer2.parse_usize (ie_pos E) claims tks salts.
Proof.
  induction paths as [|p ps IH]; intros tks claims salts Hs.
  - cbn in Hs. injection Hs as <-. reflexivity.
  - rewrite split_paths_cons in Hs. destruct (parse_path p) as [[toks key]|] eqn:Ep; [|discriminate].
    destruct (split_paths ps) as [r|] eqn:Er; [|discriminate]. injection Hs as <-.
    cbn [Issuer2.issue_fold T1j.issue_fold]. destruct salts as [|salt ss]; [reflexivity|].
    unfold Issuer2.build_disclosure. rewrite Ep.
    change (Issuer2.update_at toks (Issuer2.disclose_here E key salt) claims)
      with (Issuer1.build_disclosure (ie_hash E) (ie_enc E) Issuer2.parse_index Issuer2.parse_usize (ie_pos E) claims toks key salt).
    destruct (Issuer1.build_disclosure _ _ _ _ _ claims toks key salt) as [[c1 d]|]; [|reflexivity]. cbn [bind].
    rewrite (IH r c1 ss eq_refl). reflexivity.
Qed.

Theorem issuer2_roundtrip E (dec : string -> dec_result) :
  (forall x y, ie_hash E x = ie_hash E y -> x = y) ->
  (forall ps, dec (ie_enc E ps) = DJson (JArr ps)) ->
  forall C paths tks salts t',
    jwf C -> NoDup salts -> split_paths paths = Some tks ->
    T1j.mark_fold (ie_hash E) (ie_enc E) Issuer2.parse_index Issuer2.parse_usize (ie_pos E) (embed C) tks salts = Some t' ->
    aheight t' <= 129 ->
    exists payload ds claims ps,
      Issuer2.issue_fold E C paths salts = Ok (payload, ds) /\
      restore_disclosures (ie_hash E) dec Wire.show_nat payload (map d_str ds) = Ok (claims, ps) /\
      strip claims = C.
Proof.
  intros Hinj Hde C paths tks salts t' HC Hnd Hs Hm Hh.
  destruct (issue_restore_roundtrip_full (ie_hash E) (ie_enc E) dec Wire.show_nat Issuer2.parse_index Issuer2.parse_usize (ie_pos E)
              Hinj Hde C tks salts t' HC Hnd Hm Hh) as (payload & ds & claims & ps & Hf & Hr & Hst).
  exists payload, ds, claims, ps. split; [rewrite (issue_fold_issuer2 E paths tks C salts Hs); assumption|]. split; assumption.
Qed.

Theorem issuer2_payload_blind E :
  forall C paths tks salts t',
    jwf C -> split_paths paths = Some tks ->
    T1j.mark_fold (ie_hash E) (ie_enc E) Issuer2.parse_index Issuer2.parse_usize (ie_pos E) (embed C) tks salts = Some t' ->
    exists ds, Issuer2.issue_fold E C paths salts = Ok (blind (ie_hash E) (ie_enc E) t', ds) /\
               T2c.wf (ie_hash E) (ie_enc E) t' /\ proj (ie_hash E) (ie_enc E) Rall t' = C.
Proof.
  intros C paths tks salts t' HC Hs Hm.
  destruct (fold_of_claims (ie_hash E) (ie_enc E) Issuer2.parse_index Issuer2.parse_usize (ie_pos E) C tks salts t' HC Hm)
    as (ds & Hf & Hw' & Hproj & _).
  exists ds. split; [rewrite (issue_fold_issuer2 E paths tks C salts Hs); assumption|]. split; assumption.
Qed.
