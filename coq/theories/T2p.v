(* Completeness of the reported path list when every disclosure of the token is presented: each hidden
   node is reported exactly once, with the path string of its position. *)
From Coq Require Import List String Arith Permutation.
Import ListNotations.
Require Import SDJ.Json SDJ.Model2 SDJ.Restore2 SDJ.ATree SDJ.T2c SDJ.T2d SDJ.T2e SDJ.T2k SDJ.T2l SDJ.T2m SDJ.T2o.
Local Open Scope string_scope.

Section P.
Variable H : string -> string.
Variable enc : list json -> string.
Variable dec : string -> dec_result.
Variable show_nat : nat -> string.
Hypothesis hash_inj : forall x y, H x = H y -> x = y.
Hypothesis dec_enc : forall ps, dec (enc ps) = DJson (JArr ps).
Notation blind := (blind H enc).
Notation view := (view H enc).
Notation hdigs := (hdigs H enc).
Notation alldigs := (alldigs H enc).
Notation wf := (wf H enc).
Notation Exposed := (Exposed H enc).
Notation NodePath := (NodePath H enc show_nat).

(* at or above a hidden node that is not opened there is an exposed one: the outermost unopened node on the way to it *)
Lemma exposed_above (R : Rset) g k v : forall t, IsNode H enc g k v t -> wf t -> R g = false -> exists g' k' v', Exposed R g' k' v' t.
Proof.
  induction 1 as [items salt s Hin -> _ _ | items ik s Hin _ IH | mems name salt s Hin -> _ _ | mems name mk s Hin _ IH]; intros Hw HR.
  - eexists _, _, _. eapply ex_item_here; eauto.
  - destruct (wf_arr_in H enc _ _ Hw Hin) as [Hws Hok]. destruct (IH Hws HR) as (g' & k' & v' & Hex).
    destruct ik as [|salt|g0]; [| |unfold item_ok in Hok; cbn in Hok; subst s; inversion Hex].
    + eexists _, _, _. eapply ex_item_in; eauto.
    + destruct (R (dig_item H enc salt s)) eqn:ER; eexists _, _, _; [eapply ex_item_in; eauto; cbn; rewrite ER; reflexivity|eapply ex_item_here; eauto].
  - eexists _, _, _. eapply ex_mem_here; eauto.
  - destruct (wf_obj_in H enc _ _ Hw Hin) as [Hws Hok]. destruct (IH Hws HR) as (g' & k' & v' & Hex).
    destruct mk as [|salt|l]; [| |destruct Hok as (_ & _ & ->); inversion Hex].
    + eexists _, _, _. eapply ex_mem_in; eauto.
    + destruct (R (dig_mem H enc salt name s)) eqn:ER; eexists _, _, _; [eapply ex_mem_in; eauto; cbn; rewrite ER; reflexivity|eapply ex_mem_here; eauto].
Qed.

Lemma all_opened (Rf own : Rset) t : wf t ->
  (forall g k v, Exposed Rf g k v t -> own g = false) -> (forall g, In g (hdigs t) -> own g = true) ->
  forall g, In g (hdigs t) -> Rf g = true.
Proof.
  intros Hw Hnoex Hown g Hg. destruct (Rf g) eqn:E; [reflexivity|exfalso].
  destruct (hdigs_node H enc g t Hg) as (salt & k & v & Hn & _).
  destruct (exposed_above Rf g k v t Hn Hw E) as (g' & k' & v' & Hex).
  pose proof (Hown g' (Exposed_hdigs H enc _ _ _ _ _ Hex)). rewrite (Hnoex _ _ _ Hex) in *. discriminate.
Qed.

Definition under (label : string) (gp : string * string) : string * string :=
  (fst gp, ("/" ++ esc_tok label ++ snd gp)%string).

Section Ipaths.
Variable below : atree -> list (string * string).
Definition ipaths_of (i : nat) (it : ikind * atree) : list (string * string) :=
  let '(k, s) := it in
  match k with
  | IHid salt => (dig_item H enc salt s, ("/" ++ esc_tok (show_nat i))%string) :: map (under (show_nat i)) (below s)
  | _ => map (under (show_nat i)) (below s) end.
Fixpoint ipaths (i : nat) (items : list (ikind * atree)) : list (string * string) :=
  match items with [] => [] | it :: r => (ipaths_of i it ++ ipaths (S i) r)%list end.
End Ipaths.

(* The hidden nodes of a tree with their path strings, keyed by digest. The keys are hdigs t, so when these are
   duplicate-free a digest has one path. *)
Fixpoint npaths (t : atree) : list (string * string) :=
  match t with
  | ALeaf _ => []
  | AArr items => ipaths npaths 0 items
  | AObj mems => flat_map (fun m => let '(name, (k, s)) := m in
        match k with
        | MHid salt => (dig_mem H enc salt name s, ("/" ++ esc_tok name)%string) :: map (under name) (npaths s)
        | _ => map (under name) (npaths s) end) mems
  end.

Lemma map_fst_under label l : map fst (map (under label) l) = map fst l.
Proof. rewrite map_map. reflexivity. Qed.

Lemma ipaths_keys below items : (forall it, In it items -> map fst (below (snd it)) = hdigs (snd it)) ->
  forall i, map fst (ipaths below i items) = flat_map (hdigs_item H enc) items.
Proof.
  induction items as [|[k s] r IH]; intros Hb i; [reflexivity|].
  cbn [ipaths flat_map]. rewrite map_app, IH by (intros; apply Hb; right; assumption). f_equal.
  specialize (Hb _ (or_introl eq_refl)). cbn [snd] in Hb.
  destruct k; cbn [ipaths_of T2e.hdigs_item map fst]; rewrite map_fst_under, Hb; reflexivity.
Qed.

Lemma npaths_keys : forall t, map fst (npaths t) = hdigs t.
Proof.
  induction t as [j | items IH | mems IH] using atree_ind_in; [reflexivity|exact (ipaths_keys npaths items IH 0)|].
  cbn [npaths]. rewrite (hdigs_obj H enc), map_flat_map. apply flat_map_ext_in'.
  intros [name [k s]] Hin. specialize (IH _ Hin). cbn [snd] in IH.
  destruct k; cbn [T2e.hdigs_mem map fst]; rewrite map_fst_under, IH; reflexivity.
Qed.

Lemma ipaths_in below x pre it post : forall i,
  In x (ipaths_of below (i + List.length pre) it) -> In x (ipaths below i (pre ++ it :: post)).
Proof.
  induction pre as [|y r IH]; intros i Hx; cbn [app ipaths List.length] in *; apply in_or_app.
  - rewrite Nat.add_0_r in Hx. left. exact Hx.
  - right. apply IH. rewrite Nat.add_succ_r in Hx. exact Hx.
Qed.

Lemma NodePath_npaths g : forall t p, NodePath g t p -> In (g, p) (npaths t).
Proof.
  induction 1 as [items pre post salt s -> -> | items pre post ik s suffix -> _ IH | mems name salt s Hin -> | mems name mk s suffix Hin _ IH].
  - apply (ipaths_in npaths _ pre _ post 0). left. reflexivity.
  - apply (ipaths_in npaths _ pre _ post 0). apply (in_map (under (show_nat (List.length pre)))) in IH.
    destruct ik; [|right|]; exact IH.
  - apply in_flat_map. exists (name, (MHid salt, s)). split; [assumption|left; reflexivity].
  - apply in_flat_map. exists (name, (mk, s)). split; [assumption|]. apply (in_map (under name)) in IH.
    destruct mk; [|right|]; exact IH.
Qed.

Lemma NodePath_fun g : forall t p1 p2, NoDup (hdigs t) -> NodePath g t p1 -> NodePath g t p2 -> p1 = p2.
Proof using hash_inj.
  intros t p1 p2 Hndh H1 H2. rewrite <- npaths_keys in Hndh.
  exact (NoDup_fst_fun _ _ _ _ Hndh (NodePath_npaths _ _ _ H1) (NodePath_npaths _ _ _ H2)).
Qed.

Lemma NoDup_map_inj_in {A B} (f : A -> B) l x y : NoDup (map f l) -> In x l -> In y l -> f x = f y -> x = y.
Proof.
  induction l as [|z r IH]; [intros _ []|]. cbn [map]. intros Hnd' Hx Hy Hq. inversion Hnd' as [|? ? Hni Hr]; subst.
  destruct Hx as [->|Hx], Hy as [->|Hy]; [reflexivity| | |auto]; exfalso; apply Hni; [rewrite Hq|rewrite <- Hq]; apply in_map; assumption.
Qed.

Variable t : atree.
Hypothesis Hwf : wf t.
Hypothesis Hnd : NoDup (alldigs t).
Hypothesis Hndh : NoDup (hdigs t).
Hypothesis Hheight : aheight t <= 129.

Theorem restore_full_all_paths L ds :
  NoDup L -> (forall s, In s L -> In (H s) (alldigs t) -> In (H s) (hdigs t)) ->
  decode_all H dec L = Ok ds ->
  (forall g, In g (hdigs t) -> In g (map d_digest ds)) ->
  (forall d, In d ds -> In (d_digest d) (hdigs t)) ->
  exists ps, restore_disclosures H dec show_nat (blind t) L = Ok (view (ownS H L) t, ps) /\
    Permutation (map snd ps) ds /\
    Forall (fun pd : dpath => NodePath (d_digest (snd pd)) t (fst pd)) ps.
Proof.
  intros HndL Hdecoy Ed Hall Hown.
  destruct (restore_full_ok_paths H enc dec show_nat hash_inj dec_enc t Hwf Hnd Hndh Hheight L ds HndL Hdecoy Ed)
    as (ps & Hps & Hpl & Hndp & Rf & Hgrow & Hnoex & Hsub).
  exists ps. split; [assumption|]. split; [|eapply Forall_impl; [|exact Hpl]; intros pd [_ Hnp]; exact Hnp].
  rewrite Forall_forall in Hpl.
  assert (Hndd : NoDup (map d_digest ds)).
  { destruct (decode_all_spec H enc dec hash_inj dec_enc t Hwf L ds Ed Hdecoy) as [-> _]. apply NoDup_map_H; assumption. }
  rewrite pdig_map in Hndp.
  apply NoDup_Permutation; [eapply NoDup_map_inv; eassumption|eapply NoDup_map_inv; eassumption|]. intros d. split.
  - intros Hin. apply in_map_iff in Hin as [pd [<- Hpd]]. apply Hpl. assumption.
  - intros Hd.
    assert (HRf : Rf (d_digest d) = true).
    { apply (all_opened Rf (own ds) t Hwf Hnoex); [|auto].
      intros g Hg. apply Hall in Hg. apply in_map_iff in Hg as [d' [<- Hd']]. apply own_true. eauto. }
    apply Hgrow in HRf. apply in_map_iff in HRf as [pd [Hq Hpd]].
    rewrite <- (NoDup_map_inj_in d_digest ds (snd pd) d Hndd); [apply in_map|apply Hpl| |]; assumption.
Qed.
End P.
