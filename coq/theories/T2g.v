(* restore1 for the disclosure of a node whose digest shows in a view: it is placed when the node is exposed
   (restore1_exposed), and the call fails when the node is opened already (restore1_reopened). *)
From Coq Require Import List String Arith.
Import ListNotations.
Require Import SDJ.Split SDJ.Json SDJ.Model2 SDJ.ATree SDJ.T2c SDJ.T2d SDJ.T2e SDJ.T2f SDJ.T2k.
Local Open Scope string_scope.

Section G.
Variable H : string -> string.
Variable enc : list json -> string.
Variable show_nat : nat -> string.
Notation blind := (blind H enc).
Notation view := (view H enc).
Notation hdigs := (hdigs H enc).
Notation alldigs := (alldigs H enc).
Notation wf := (wf H enc).
Notation vitem R := (ATree.view_item H enc (view R) R).
Notation vmem R := (ATree.view_mem H enc (view R) R).
Notation restore1 := (restore1 show_nat).
Notation hdigs_item := (hdigs_item H enc).
Notation hdigs_mem := (hdigs_mem H enc).
Notation adigs_mem := (adigs_mem alldigs).
Notation Exposed := (Exposed H enc).
Notation Visible := (Visible H enc).
Notation NodePath := (NodePath H enc show_nat).
Notation closedR := (closedR H enc).

Lemma view_Radd_arr R g pre it post :
  NoDup (hdigs (AArr (pre ++ it :: post))) -> In g (hdigs_item it) ->
  view (Radd R g) (AArr (pre ++ it :: post)) = JArr (map (vitem R) pre ++ vitem (Radd R g) it :: map (vitem R) post).
Proof.
  intros Hnd Hg. rewrite hdigs_arr in Hnd. rewrite view_arr. f_equal. apply map_focus. intros y Hy.
  apply vitem_ext. intros g' Hg'. apply Radd_other. intros ->. exact (NoDup_flat_map_other _ _ _ _ _ Hnd Hg y Hy Hg').
Qed.

Lemma view_Radd_obj R g pre m post :
  NoDup (hdigs (AObj (pre ++ m :: post))) -> In g (hdigs_mem m) ->
  view (Radd R g) (AObj (pre ++ m :: post)) = JObj (flat_map (vmem R) pre ++ vmem (Radd R g) m ++ flat_map (vmem R) post).
Proof.
  intros Hnd Hg. rewrite hdigs_obj in Hnd. rewrite view_obj. f_equal. apply flat_map_focus. intros y Hy.
  apply vmem_ext. intros g' Hg'. apply Radd_other. intros ->. exact (NoDup_flat_map_other _ _ _ _ _ Hnd Hg y Hy Hg').
Qed.

Lemma view_Radd_blind R g s : (forall g', In g' (hdigs s) -> R g' = false) -> ~ In g (hdigs s) -> view (Radd R g) s = blind s.
Proof. intros Hc Hn. apply view_blind. intros g' Hg'. rewrite Radd_other; [auto|]. intros ->. contradiction. Qed.

Lemma format_path_app path k suffix : (format_path path k ++ suffix)%string = (path ++ ("/" ++ esc_tok k ++ suffix))%string.
Proof. unfold format_path. rewrite !append_assoc_. reflexivity. Qed.

(* restoring an exposed hidden node opens it, at the path of the node, and reports one placement *)
Theorem restore1_exposed : forall t, wf t -> forall n R g k v d,
  NoDup (alldigs t) -> NoDup (hdigs t) -> closedR R t -> aheight t <= n ->
  Exposed R g k v t -> d_digest d = g -> d_key d = k -> d_val d = v ->
  exists suffix, NodePath g t suffix /\ forall path, restore1 n d path (view R t) = Ok (view (Radd R g) t, [((path ++ suffix)%string, d)], true).
Proof.
  intros t Hwf n R g k v d Hnd Hndh Hcl Hh Hex Hdg Hdk Hdv. revert n Hwf Hnd Hndh Hcl Hh.
  induction Hex as [items salt s Hin Hg HRg Hk Hv | items ik s Hin Hop Hex IH
                   | mems name salt s Hin Hg HRg Hk Hv | mems name mk s Hin Hop Hex IH];
    intros n Hwf Hnd Hndh Hcl Hh.
  (* an array or object takes one level of the budget *)
  all: destruct n as [|n]; [inversion Hh|].
  all: destruct (in_split _ _ Hin) as (pre & post & ->).
  - (* the placeholder is an element of this array *)
    destruct (wf_arr_in _ _ _ _ Hwf Hin) as [Hws _].
    assert (Hgs : ~ In g (alldigs s)).
    { rewrite alldigs_arr in Hnd. apply (NoDup_flat_map_in _ _ _ Hnd) in Hin. cbn in Hin. rewrite <- Hg in Hin.
      apply NoDup_cons_iff in Hin. apply Hin. }
    assert (Hvb : view (Radd R g) s = blind s).
    { apply view_Radd_blind; [|intros Hgh; apply Hgs, hdigs_alldigs; assumption].
      pose proof (closedR_arr_in _ _ _ _ _ Hcl Hin) as Hc. unfold iclosed in Hc. cbn in Hc. rewrite <- Hg, HRg in Hc. exact Hc. }
    exists ("/" ++ esc_tok (show_nat (List.length pre)))%string. split; [eapply np_item_here; eauto|]. intros path.
    rewrite restore1_arr_here by (assumption || congruence).
    rewrite Hdv, Hv, <- Hvb, restore1_view_frame; [|assumption|congruence|].
    + cbn [bind]. rewrite view_Radd_arr by (assumption || (left; symmetry; assumption)).
      cbn [ATree.view_item]. rewrite <- Hg, Radd_same. reflexivity.
    + exact (aheight_item_le _ (IHid salt, s) _ Hh Hin).
  - (* the placeholder is deeper, inside an opened element *)
    destruct (wf_arr_in _ _ _ _ Hwf Hin) as [Hws _].
    pose proof (Exposed_hdigs _ _ _ _ _ _ _ Hex) as Hgh.
    pose proof (closedR_arr_in _ _ _ _ _ Hcl Hin) as Hc. unfold iclosed in Hc. rewrite Hop in Hc.
    rewrite hdigs_arr in Hndh.
    destruct (IH n Hws (NoDup_alldigs_arr_in _ _ _ _ Hwf Hnd Hin) (NoDup_hdigs_item _ _ _ (NoDup_flat_map_in _ _ _ Hndh Hin)) Hc
                (aheight_item_le _ (ik, s) _ Hh Hin)) as (suffix & Hnp & Hsub).
    exists ("/" ++ esc_tok (show_nat (List.length pre)) ++ suffix)%string. split; [eapply np_item_in; eauto|]. intros path.
    rewrite restore1_arr_in, Hsub by (try assumption; rewrite Hdg; apply hdigs_alldigs; assumption). cbn [bind].
    rewrite view_Radd_arr by (try assumption; apply hdigs_sub_item, Hgh).
    rewrite (vitem_opened _ _ _ _ (iopened_Radd _ _ _ g _ Hop)), format_path_app. reflexivity.
  - (* the digest is in this object's _sd *)
    destruct (wf_obj_in _ _ _ _ Hwf Hin) as [Hws (_ & _ & Hsd)].
    assert (Hgs : ~ In g (alldigs s)).
    { (* g is listed by the _sd member, hence not below this one *)
      intros Hgs. destruct (in_sd_of _ _ _ _ Hwf Hsd) as (l & sy & Hy & Hgl). rewrite alldigs_obj, <- Hg in *.
      discriminate (NoDup_flat_map_same adigs_mem _ _ _ _ Hnd Hy Hin Hgl Hgs). }
    assert (Hvb : view (Radd R g) s = blind s).
    { apply view_Radd_blind; [|intros Hgh; apply Hgs, hdigs_alldigs; assumption].
      pose proof (closedR_obj_in _ _ _ _ _ Hcl Hin) as Hc. unfold mclosed in Hc. cbn in Hc. rewrite <- Hg, HRg in Hc. exact Hc. }
    exists ("/" ++ esc_tok name)%string. split; [eapply np_mem_here; eauto|]. intros path.
    rewrite restore1_obj_here by (assumption || congruence).
    rewrite Hdv, Hv, <- Hvb, restore1_view_frame; [|assumption|congruence|].
    + cbn [bind]. rewrite view_Radd_obj by (assumption || (left; symmetry; assumption)).
      cbn [ATree.view_mem]. rewrite <- Hg, Radd_same. reflexivity.
    + exact (aheight_mem_le _ _ _ (name, (MHid salt, s)) _ Hwf Hh Hin).
  - (* the digest is deeper, inside a visible member *)
    destruct (wf_obj_in _ _ _ _ Hwf Hin) as [Hws _].
    pose proof (Exposed_hdigs _ _ _ _ _ _ _ Hex) as Hgh.
    pose proof (closedR_obj_in _ _ _ _ _ Hcl Hin) as Hc. unfold mclosed in Hc. rewrite Hop in Hc.
    rewrite hdigs_obj in Hndh.
    destruct (IH n Hws (NoDup_alldigs_obj_in _ _ _ _ Hwf Hnd Hin) (NoDup_hdigs_mem _ _ _ (NoDup_flat_map_in _ _ _ Hndh Hin)) Hc
                (aheight_mem_le _ _ _ (name, (mk, s)) _ Hwf Hh Hin)) as (suffix & Hnp & Hsub).
    exists ("/" ++ esc_tok name ++ suffix)%string. split; [eapply np_mem_in; eauto|]. intros path.
    rewrite restore1_obj_in, Hsub by (try assumption; rewrite Hdg; apply hdigs_alldigs; assumption). cbn [bind].
    rewrite view_Radd_obj by (try assumption; apply hdigs_sub_mem, Hgh).
    rewrite (vmem_opened _ _ _ _ (mopened_Radd _ _ _ g _ Hop)), format_path_app. reflexivity.
Qed.
Print Assumptions restore1_exposed.

(* the disclosure of a node that is visible although it is opened - a member, then - is an error: the run descends to
   the member's object as the run that placed it did, and there the name is taken *)
Lemma restore1_reopened R g k v d : forall t, Visible R g k v t -> R g = true -> d_digest d = g -> d_key d = k ->
  forall n, wf t -> NoDup (alldigs t) -> aheight t <= n -> forall path, restore1 n d path (view R t) = Err.
Proof.
  intros t Hv HR Hdg Hdk.
  induction Hv as [items salt s Hin Hg HRf Hk Hv | items ik s Hin Hop Hv IH | mems name salt s Hin Hg Hk Hv | mems name mk s Hin Hop Hv IH];
    intros n Hwf Hnd Hh path; [congruence|..];
    (destruct n as [|n]; [rewrite ?aheight_arr, ?aheight_obj in Hh; inversion Hh|]).
  - destruct (in_split _ _ Hin) as (pre & post & ->). destruct (wf_arr_in _ _ _ _ Hwf Hin) as [Hws _].
    assert (Hga : In (d_digest d) (alldigs s)) by (rewrite Hdg; eapply Visible_alldigs; eassumption).
    rewrite (restore1_arr_in H enc show_nat n d path R pre ik s post Hwf Hnd Hh Hop Hga).
    rewrite (IH n Hws (NoDup_alldigs_arr_in _ _ _ _ Hwf Hnd Hin) (aheight_item_le _ (ik, s) _ Hh Hin)). reflexivity.
  - cbn [Model2.restore1]. rewrite view_obj, (sd_step_view_taken H enc d path R mems name salt s) by congruence. reflexivity.
  - destruct (in_split _ _ Hin) as (pre & post & ->). destruct (wf_obj_in _ _ _ _ Hwf Hin) as [Hws _].
    assert (Hga : In (d_digest d) (alldigs s)) by (rewrite Hdg; eapply Visible_alldigs; eassumption).
    rewrite (restore1_obj_in H enc show_nat n d path R pre name mk s post Hwf Hnd Hh Hop Hga).
    rewrite (IH n Hws (NoDup_alldigs_obj_in _ _ _ _ Hwf Hnd Hin) (aheight_mem_le _ _ _ (name, (mk, s)) _ Hwf Hh Hin)). reflexivity.
Qed.
End G.
