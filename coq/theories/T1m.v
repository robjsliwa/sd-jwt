(* Root-level post-processing of Issuer::encode on the annotated tree: decoys and shuffle of the top-level
   digest list, the _sd_alg and cnf members. Both are changes in the middle of a key-sorted member list:
   mems = pre ++ mid ++ post becomes pre ++ mid' ++ post, and everything the tree is asked for (blinded form,
   projection, digests, height) is a flat_map over the members. *)
From Coq Require Import List String Arith Sorting.Sorted Permutation.
Import ListNotations.
Require Import SDJ.Json SDJ.Model2 SDJ.ATree SDJ.T2a SDJ.T2b SDJ.T2c SDJ.T2e SDJ.T2h SDJ.T1b SDJ.T1e.
Local Open Scope string_scope.

Definition amems := list (string * (mkind * atree)).

Lemma sorted_cut k : forall mems : amems, StronglySorted slt (map fst mems) -> ~ In k (map fst mems) ->
  exists pre post, mems = (pre ++ post)%list /\ around k pre post.
Proof.
  induction mems as [|[n y] r IH]; intros Hs Hni; [exists [], []; repeat constructor|].
  cbn [map fst] in Hs, Hni. apply StronglySorted_inv in Hs as [Hs Hf].
  destruct (slt_cases k n) as [Ec|[->|Ec]].
  - exists [], ((n, y) :: r). split; [reflexivity|]. split; [constructor|]. constructor; [exact Ec|].
    eapply Forall_impl; [|exact Hf]. intros a. apply slt_trans. exact Ec.
  - destruct Hni. left. reflexivity.
  - destruct (IH Hs) as (pre & post & -> & Hpre & Hpost); [intros Hin; apply Hni; right; exact Hin|].
    exists ((n, y) :: pre), post. split; [reflexivity|]. split; [|exact Hpost].
    cbn [map fst]. constructor; [exact Ec|exact Hpre].
Qed.

Lemma ssorted_mid {A} (R : A -> A -> Prop) l1 x l2 :
  StronglySorted R (l1 ++ l2) -> Forall (fun y => R y x) l1 -> Forall (R x) l2 -> StronglySorted R (l1 ++ x :: l2).
Proof.
  intros Hs H1 H2. induction H1 as [|y r Hy _ IH]; cbn [app] in *; [constructor; assumption|].
  apply StronglySorted_inv in Hs as [Hs Hf]. constructor; [exact (IH Hs)|].
  apply Forall_app in Hf as [Hf1 Hf2]. apply Forall_app. split; [exact Hf1|]. constructor; assumption.
Qed.

Section M.
Variable H : string -> string.
Variable enc : list json -> string.
Notation blind := (blind H enc).
Notation wf := (wf H enc).
Notation hdigs := (hdigs H enc).
Notation alldigs := (alldigs H enc).
Notation bmem := (bmem H enc).
Notation proj := (proj H enc).
Notation dig_mem := (dig_mem H enc).
Notation mem_ok := (mem_ok H enc).

Definition pmem (R : Rset) (m : string * (mkind * atree)) : list (string * json) :=
  let '(name, (k, s)) := m in
  match k with
  | MPlain => [(name, proj R s)]
  | MHid salt => if R (dig_mem salt name s) then [(name, proj R s)] else []
  | MSd _ => [] end.
Lemma proj_obj R mems : proj R (AObj mems) = JObj (flat_map (pmem R) mems).
Proof. reflexivity. Qed.

Lemma pmem_key R m kv : In kv (pmem R m) -> fst kv = fst m.
Proof.
  destruct m as [name [[|salt|l] s]]; cbn [pmem In]; [|destruct (R (dig_mem salt name s)); [|intros []]|intros []].
  all: intros [<-|[]]; reflexivity.
Qed.

Lemma keys_opened R (mems : amems) k : (forall g, R g = true) -> wf (AObj mems) -> In k (map fst mems) ->
  k = "_sd" \/ In k (map fst (flat_map (pmem R) mems)).
Proof.
  intros HR Hw Hin. apply in_map_iff in Hin as [[n [mk s]] [Hq Hin]]. cbn in Hq. subst n.
  inversion Hw as [| | ? _ _ Hok]; subst. rewrite Forall_forall in Hok. specialize (Hok _ Hin). cbn in Hok.
  destruct mk as [|salt|l]; [right|right|left; tauto].
  (* a plain member and, as R holds of every digest, a hidden one are in the projection under their name *)
  all: apply in_map_iff; exists (k, proj R s); split; [reflexivity|]; apply in_flat_map; eexists; split; [exact Hin|].
  all: cbn [pmem]; rewrite ?HR; left; reflexivity.
Qed.

Lemma proj_obj_inv R t kvs : wf t -> proj R t = JObj kvs -> exists mems, t = AObj mems.
Proof.
  intros Hw Hp. destruct t as [j|items|mems]; [| |eauto]; exfalso.
  - inversion Hw as [j0 Hsc| |]; subst. cbn in Hp. subst j. exact Hsc.
  - discriminate.
Qed.

Lemma wf_mid (pre mid mid' post : amems) :
  wf (AObj (pre ++ mid ++ post)) ->
  StronglySorted slt (map fst (pre ++ mid' ++ post)) ->
  Forall (fun m => wf (snd (snd m))) mid' -> Forall (mem_ok (pre ++ mid' ++ post)) mid' ->
  incl (sd_of mid) (sd_of mid') ->
  wf (AObj (pre ++ mid' ++ post)).
Proof.
  intros Hw Hs Hwm Hokm Hincl. inversion Hw as [| | ? _ Hall Hok]; subst.
  rewrite !Forall_app in Hall, Hok. destruct Hall as (Ha1 & _ & Ha2). destruct Hok as (Ho1 & _ & Ho2).
  assert (Hmono : forall m, mem_ok (pre ++ mid ++ post) m -> mem_ok (pre ++ mid' ++ post) m).
  { intros m. apply mem_ok_mono. unfold sd_of in *. rewrite !flat_map_app.
    apply incl_app_app; [apply incl_refl|]. apply incl_app_app; [exact Hincl|apply incl_refl]. }
  constructor; [exact Hs|rewrite !Forall_app; auto|]. rewrite !Forall_app.
  split; [exact (Forall_impl _ Hmono Ho1)|]. split; [exact Hokm|exact (Forall_impl _ Hmono Ho2)].
Qed.

(* m' has the members of m and is as fit for restore below height n: the same digests, hidden and all *)
Record keeps (n : nat) (m m' : amems) : Prop := {
  keeps_wf : wf (AObj m');
  keeps_height : aheight (AObj m') <= n;
  keeps_hdigs : Permutation (hdigs (AObj m')) (hdigs (AObj m));
  keeps_alldigs : Permutation (alldigs (AObj m')) (alldigs (AObj m));
  keeps_mems : incl m m' }.

Lemma keeps_trans n (m1 m2 m3 : amems) : keeps n m1 m2 -> keeps n m2 m3 -> keeps n m1 m3.
Proof.
  intros [_ _ Hh Ha Hi] [Hw Hn Hh' Ha' Hi'].
  constructor; [exact Hw|exact Hn|exact (Permutation_trans Hh' Hh)|exact (Permutation_trans Ha' Ha)|exact (incl_tran Hi Hi')].
Qed.

(* a plain claim under a fresh name: what the issuer does with _sd_alg and cnf *)
Lemma fresh_claim k j (m : amems) n :
  wf (AObj m) -> aheight (AObj m) <= n -> jwf j -> S (aheight (embed j)) <= n ->
  ~ In k (map fst m) -> k <> "_sd" -> k <> "..." ->
  exists m' : amems,
  keeps n m m' /\
  flat_map bmem m' = obj_insert k j (flat_map bmem m) /\
  (forall R, flat_map (pmem R) m' = obj_insert k j (flat_map (pmem R) m)) /\
  (forall k', In k' (map fst m') -> k' = k \/ In k' (map fst m)).
Proof.
  intros Hw Hh Hj Hhj Hk H1 H2. assert (Hs : StronglySorted slt (map fst m)) by (inversion Hw; assumption).
  destruct (sorted_cut k m Hs Hk) as (pre & post & -> & Hcut).
  exists (pre ++ (k, (MPlain, embed j)) :: post)%list.
  split; [constructor|].
  - apply (wf_mid pre [] [(k, (MPlain, embed j))] post Hw).
    + rewrite map_app in Hs. rewrite map_app. cbn [map fst app]. apply ssorted_mid; [exact Hs|apply Hcut|apply Hcut].
    + constructor; [exact (wf_embed H enc j Hj)|constructor].
    + constructor; [split; assumption|constructor].
    + intros g [].
  - apply (Nat.le_trans _ (Nat.max (aheight (AObj (pre ++ post))) (S (aheight (embed j))))); [|apply Nat.max_lub; assumption].
    rewrite !aheight_obj, !hmax_app, <- Nat.succ_max_distr. cbn [hmax fold_right]. apply le_n_S.
    rewrite (Nat.max_comm (aheight (embed j))), Nat.max_assoc. reflexivity.
  - rewrite !(hdigs_obj H enc), !flat_map_app. cbn [flat_map T2e.hdigs_mem]. rewrite (hdigs_embed H enc). reflexivity.
  - rewrite !alldigs_obj, !flat_map_app. cbn [flat_map T2c.adigs_mem]. rewrite (alldigs_embed H enc). reflexivity.
  - intros x. apply T2d.in_mid.
  - split; [rewrite !flat_map_app; cbn [flat_map T1b.bmem app]; rewrite (blind_embed H enc); symmetry; apply (keyed_insert bmem (bmem_key H enc)); exact Hcut|].
    split; [intros R; rewrite !flat_map_app; cbn [flat_map pmem app]; rewrite (proj_embed H enc); symmetry; apply (keyed_insert (pmem R) (pmem_key R)); exact Hcut|].
    intros n' Hn. rewrite map_app in Hn |- *.
    apply in_app_or in Hn as [Hn|[<-|Hn]]; [right; apply in_or_app; left; exact Hn|left; reflexivity|right; apply in_or_app; right; exact Hn].
Qed.

Definition opt_sd (o : option (list string)) : amems :=
  match o with Some l => [("_sd", (MSd l, ALeaf JNull))] | None => [] end.
Definition sd_list (o : option (list string)) : list string := match o with Some l => l | None => [] end.

Lemma root_form mems : wf (AObj mems) ->
  exists pre o post, mems = (pre ++ opt_sd o ++ post)%list /\ around "_sd" pre post.
Proof.
  intros Hw. inversion Hw as [| | ? Hs _ Hok]; subst.
  destruct (in_dec string_dec "_sd" (map fst mems)) as [Hin|Hni].
  - apply in_map_iff in Hin as [[n [mk s]] [Hq Hin]]. cbn in Hq. subst n.
    rewrite Forall_forall in Hok. specialize (Hok _ Hin). cbn in Hok.
    destruct mk as [|salt|l]; [exfalso; apply (proj2 Hok); reflexivity|exfalso; apply (proj1 (proj2 Hok)); reflexivity|].
    destruct Hok as (_ & _ & ->). destruct (in_split _ _ Hin) as (pre & post & ->).
    rewrite map_app in Hs. cbn [map fst] in Hs. apply ssorted_split in Hs.
    exists pre, (Some l), post. split; [reflexivity|exact Hs].
  - destruct (sorted_cut "_sd" mems Hs Hni) as (pre & post & -> & Hcut).
    exists pre, None, post. split; [reflexivity|exact Hcut].
Qed.

Lemma root_get (pre post : amems) o :
  around "_sd" pre post ->
  obj_get "_sd" (flat_map bmem (pre ++ opt_sd o ++ post)) = option_map (fun l => JArr (map JStr l)) o.
Proof.
  intros [Hpre Hpost].
  pose proof (keyed_notin bmem (bmem_key H enc) (fun n => slt n "_sd") "_sd" pre Hpre (slt_irrefl _)) as Hn.
  rewrite !flat_map_app. destruct o as [l|]; cbn [opt_sd flat_map T1b.bmem app option_map].
  - apply obj_get_mid_found. exact Hn.
  - apply obj_get_none. rewrite map_app, in_app_iff. intros [Hin|Hin]; [exact (Hn Hin)|].
    exact (keyed_notin bmem (bmem_key H enc) (slt "_sd") "_sd" post Hpost (slt_irrefl _) Hin).
Qed.

Lemma root_insert (pre post : amems) o l :
  around "_sd" pre post ->
  obj_insert "_sd" (JArr (map JStr l)) (flat_map bmem (pre ++ opt_sd o ++ post)) = flat_map bmem (pre ++ opt_sd (Some l) ++ post).
Proof.
  intros Hcut. rewrite !flat_map_app. destruct o as [l0|]; cbn [opt_sd flat_map T1b.bmem app].
  - apply (keyed_replace bmem (bmem_key H enc)). exact (proj1 Hcut).
  - apply (keyed_insert bmem (bmem_key H enc)). exact Hcut.
Qed.

(* the root list may be created or grown, not dropped *)
Lemma wf_root (pre post : amems) o o' :
  around "_sd" pre post ->
  wf (AObj (pre ++ opt_sd o ++ post)) -> (o' = None -> o = None) -> incl (sd_list o) (sd_list o') ->
  wf (AObj (pre ++ opt_sd o' ++ post)).
Proof.
  intros [Hpre Hpost] Hw Hnone Hincl. destruct o' as [l|]; [|rewrite (Hnone eq_refl) in Hw; exact Hw].
  apply (wf_mid pre (opt_sd o) (opt_sd (Some l)) post Hw).
  - inversion Hw as [| | ? Hs _ _]; subst. rewrite !map_app in Hs |- *.
    destruct o; [exact Hs|]. apply ssorted_mid; assumption.
  - constructor; [constructor; exact I|constructor].
  - constructor; [|constructor]. split; [discriminate|]. split; reflexivity.
  - unfold sd_of. destruct o; cbn [opt_sd flat_map fst snd app] in *; rewrite !app_nil_r; [exact Hincl|intros g []].
Qed.

Lemma hdigs_root (pre post : amems) o : hdigs (AObj (pre ++ opt_sd o ++ post)) = hdigs (AObj (pre ++ post)).
Proof. rewrite !(hdigs_obj H enc), !flat_map_app. destruct o; reflexivity. Qed.

Lemma pmems_root R (pre post : amems) o : flat_map (pmem R) (pre ++ opt_sd o ++ post) = flat_map (pmem R) (pre ++ post).
Proof. rewrite !flat_map_app. destruct o; reflexivity. Qed.

Lemma alldigs_root (pre post : amems) o : Permutation (alldigs (AObj (pre ++ opt_sd o ++ post))) (sd_list o ++ alldigs (AObj (pre ++ post))).
Proof.
  rewrite !alldigs_obj, !flat_map_app. destruct o as [l|]; [|reflexivity].
  cbn [opt_sd flat_map T2c.adigs_mem sd_list]. rewrite app_nil_r. apply Permutation_app_swap_app.
Qed.

(* 3: the object, over the list under _sd, over its strings *)
Lemma aheight_root (pre post : amems) o :
  aheight (AObj (pre ++ opt_sd o ++ post)) = Nat.max (aheight (AObj (pre ++ post))) (match o with Some _ => 3 | None => 0 end).
Proof.
  rewrite !aheight_obj, !hmax_app. destruct o; [|reflexivity]. cbn [opt_sd hmax fold_right].
  rewrite <- (Nat.succ_max_distr _ 2). f_equal. rewrite (Nat.max_comm (Nat.max 2 0)), Nat.max_assoc. reflexivity.
Qed.

End M.
