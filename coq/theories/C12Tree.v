(* C12, whole tree: if the duplicate/structure walk that ends restore_disclosures accepts a tree, then
   everywhere in that tree - at any depth - every _sd is an array, every array placeholder is a
   single-member object, and no digest is embedded twice (nor equal to the digest of a placed element). *)
From Coq Require Import List String Bool Arith.
Import ListNotations.
Require Import SDJ.Json SDJ.Model2 SDJ.Restore2 SDJ.T2n.
Local Open Scope string_scope.

Theorem check_digests_accepts_only_clean n j seen seen' :
  check_digests n j seen = Ok seen' ->
  cleanb n j = true /\ seen' = (rev (cdigs j) ++ seen)%list /\ fresh (cdigs j) seen.
Proof.
  rewrite check_digests_eq. destruct (cleanb n j); [|discriminate]. intros Hi. split; [reflexivity|]. apply insert_all_iff. assumption.
Qed.

(* with the digests of the placed array elements as initial set, as restore_disclosures does it *)
Corollary restore_accepts_only_clean H dec show_nat claims L c ps :
  restore_disclosures H dec show_nat claims L = Ok (c, ps) ->
  cleanb 129 c = true /\ NoDup (cdigs c) /\ (forall g, In g (cdigs c) -> ~ In g (placed_item_digests ps)).
Proof.
  unfold restore_disclosures. destruct (restore_passes H dec show_nat claims L) as [[c0 ps0]|]; [|discriminate]. cbn [bind].
  destruct (insert_all (placed_item_digests ps0) []) as [seen|] eqn:Ei; [|discriminate]. cbn [bind].
  destruct (check_digests 129 c0 seen) as [seen'|] eqn:Ec; [|discriminate]. cbn [bind]. intros Hq. injection Hq as <- <-.
  destruct (check_digests_accepts_only_clean _ _ _ _ Ec) as (Hcl & _ & Hn & Hd).
  destruct (proj1 (insert_all_iff _ _ _) Ei) as [-> _].
  split; [assumption|]. split; [assumption|]. intros g Hg Hp. apply (Hd g Hg). apply in_or_app. left. apply -> in_rev. assumption.
Qed.

Inductive sub : json -> json -> Prop :=
| sub_refl j : sub j j
| sub_arr v x xs : In x xs -> sub v x -> sub v (JArr xs)
| sub_obj v k x kvs : In (k, x) kvs -> sub v x -> sub v (JObj kvs).

Lemma cleanb_sub v c : sub v c -> forall n, cleanb n c = true -> exists m, cleanb m v = true.
Proof.
  induction 1 as [j | v x xs Hin _ IH | v k x kvs Hin _ IH]; intros [|n] Hc; try discriminate; [eauto| |]; cbn [cleanb] in Hc.
  - rewrite forallb_forall in Hc. apply Hc, andb_true_iff in Hin as [_ Hx]. eauto.
  - apply andb_true_iff in Hc as [_ Hc]. rewrite forallb_forall in Hc. apply Hc in Hin. eauto.
Qed.

Lemma cleanb_obj_sd n kvs sd : cleanb n (JObj kvs) = true -> obj_get "_sd" kvs = Some sd -> exists xs, sd = JArr xs.
Proof.
  destruct n; [discriminate|]. cbn [cleanb]. unfold sd_ok_b. intros Hc Hg. rewrite Hg in Hc. destruct sd; try discriminate. eauto.
Qed.

Lemma cleanb_placeholder n xs kvs d : cleanb n (JArr xs) = true -> In (JObj kvs) xs -> obj_get "..." kvs = Some d -> List.length kvs = 1.
Proof.
  destruct n; [discriminate|]. cbn [cleanb]. intros Hc Hin Hg. rewrite forallb_forall in Hc. apply Hc, andb_true_iff in Hin as [Hi _].
  unfold item_digest_ok, item_digest in Hi. rewrite Hg in Hi. destruct (Nat.eqb_spec (List.length kvs) 1); [assumption|discriminate].
Qed.

(* C12, at any depth: an accepted result has no non-array _sd, no placeholder with extra members, and no
   digest embedded twice, anywhere *)
Theorem accepted_tree_is_clean H dec show_nat claims L c ps :
  restore_disclosures H dec show_nat claims L = Ok (c, ps) ->
  NoDup (cdigs c) /\
  forall v, sub v c ->
    (forall kvs sd, v = JObj kvs -> obj_get "_sd" kvs = Some sd -> exists xs, sd = JArr xs) /\
    (forall xs kvs d, v = JArr xs -> In (JObj kvs) xs -> obj_get "..." kvs = Some d -> List.length kvs = 1).
Proof.
  intros Hr. destruct (restore_accepts_only_clean _ _ _ _ _ _ _ Hr) as (Hcl & Hnd & _). split; [assumption|].
  intros v Hs. destruct (cleanb_sub v c Hs _ Hcl) as [m Hv]. split.
  - intros kvs sd -> Hg. eapply cleanb_obj_sd; eauto.
  - intros xs kvs d -> Hin Hg. eapply cleanb_placeholder; eauto.
Qed.
