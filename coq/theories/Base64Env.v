(* The disclosure encoding of the library as a composition: JSON text of the array (serde_json, an oracle pair
   ser / parse with parse (ser ps) = Some (JArr ps)) followed by base64url without padding (Base64.v, proved).
   With it the two premises about the encoding that the entry-point theorems carry - "decoding inverts encoding" and
   "an encoded disclosure contains no '~'" - are theorems; what remains assumed of the text layer is that JSON
   parsing inverts JSON printing. *)
From Coq Require Import List String Ascii Bool Arith ZArith.
Import ListNotations.
Require Import SDJ.Json SDJ.Model2 SDJ.Restore2 SDJ.Split SDJ.Base64
  SDJ.Out SDJ.ATree SDJ.T2c SDJ.T1e SDJ.T1j SDJ.Issuer2 SDJ.T1k SDJ.Verify SDJ.T1p.
Local Open Scope string_scope.

Lemma all_chars_excludes (p : ascii -> bool) c s : p c = false -> all_chars p s = true -> Split.contains c s = false.
Proof.
  intros Hc. induction s as [|a r IH]; intros Ha; [reflexivity|]. cbn [all_chars] in Ha. apply andb_true_iff in Ha as [Hpa Hr].
  cbn [Split.contains]. rewrite (IH Hr), orb_false_r. destruct (Ascii.eqb_spec a c) as [->|]; [congruence|reflexivity].
Qed.

Section Env.
Variable ser : list json -> string.
Variable parse : string -> option json.
Hypothesis parse_ser : forall ps, parse (ser ps) = Some (JArr ps).

Definition enc64 (ps : list json) : string := Base64.encode (ser ps).
Definition dec64 (s : string) : dec_result :=
  match Base64.decode s with
  | Some t => match parse t with Some j => DJson j | None => DErr end
  | None => DErr end.

Theorem dec64_enc64 ps : dec64 (enc64 ps) = DJson (JArr ps).
Proof. unfold dec64, enc64. rewrite decode_encode, parse_ser. reflexivity. Qed.

Theorem enc64_tilde_free ps : Split.contains Split.tilde (enc64 ps) = false.
Proof. apply (all_chars_excludes separator_free); [reflexivity|apply encode_separator_free]. Qed.

Theorem enc64_dot_free ps : Split.contains "."%char (enc64 ps) = false.
Proof. apply (all_chars_excludes separator_free); [reflexivity|apply encode_separator_free]. Qed.

Theorem enc64_injective a b : enc64 a = enc64 b -> a = b.
Proof.
  unfold enc64. intros E. apply encode_injective in E. apply (f_equal parse) in E. rewrite !parse_ser in E.
  injection E as E. exact E.
Qed.
End Env.

(* the C01 entry-point theorem for this encoding: its two premises about the encoding are the theorems above *)

Theorem encode_then_holder_verify_b64 :
  forall (ser : list json -> string) (parse : string -> option json),
  (forall ps, parse (ser ps) = Some (JArr ps)) ->
  forall (E : issue_env) (O : oracles),
  ie_enc E = enc64 ser -> o_dec O = dec64 parse ->
  (forall x y, ie_hash E x = ie_hash E y -> x = y) ->
  o_hash O SHA256 = ie_hash E ->
  (forall h p j, ie_sign E h p = Val j -> o_jwt O j = Val (h, p)) ->
  (forall h p, exists j, ie_sign E h p = Val j /\ Split.contains Split.tilde j = false) ->
  (forall xs, Permutation.Permutation (ie_perm E xs) xs) ->
  forall (ckvs : list (string * json)) (paths : list string) tks (t' : atree)
         (max_decoys : option Z) (cnf : option json) (header : json),
  jwf (JObj ckvs) -> ~ In "_sd_alg" (map fst ckvs) -> ~ In "cnf" (map fst ckvs) ->
  NoDup (ie_salts E) -> paths <> [] -> split_paths paths = Some tks ->
  T1j.mark_fold (ie_hash E) (ie_enc E) Issuer2.parse_index Issuer2.parse_usize (ie_pos E) (embed (JObj ckvs)) tks (ie_salts E) = Some t' ->
  NoDup (decoys_used E max_decoys) ->
  (forall g, In g (decoys_used E max_decoys) -> ~ In g (alldigs (ie_hash E) (ie_enc E) t')) ->
  (match cnf with Some c => jwf c /\ S (aheight (embed c)) <= 129 | None => True end) ->
  aheight t' <= 129 ->
  exists token payload ds ps,
    issue E (JObj ckvs) paths max_decoys cnf header = Val (token, payload, ds) /\
    holder_verify O token = Val (header, match cnf with Some c => JObj (obj_insert "cnf" c ckvs) | None => JObj ckvs end, ps).
Proof.
  intros ser parse Hps E O Henc Hdec Hinj Hh Hjwt Hsign Hperm.
  apply encode_then_holder_verify; try assumption.
  - intros ps. rewrite Henc, Hdec. apply dec64_enc64. exact Hps.
  - intros ps. rewrite Henc. apply enc64_tilde_free.
Qed.
