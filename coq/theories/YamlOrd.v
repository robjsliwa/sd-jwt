(* C15: the paths parse_yaml reports are a valid marking - the JSON pointers of the tagged nodes, each an
   existing node of the claims, descendants before ancestors, no repeats - so issuing with them succeeds. *)
From Coq Require Import List String Ascii Bool Arith NArith Lia Sorting.Sorted.
Import ListNotations.
Require Import SDJ.Json SDJ.Wire SDJ.Yaml SDJ.T1e SDJ.T1r SDJ.C15Proofs SDJ.T2b.
Require Import SDJ.DecStr SDJ.PathStr.
Local Open Scope string_scope.

Definition segs (a : addr) : list string := map etok a.

Lemma render_segs_segs a : render_segs (segs a) = render a.
Proof. induction a as [|t r IH]; [reflexivity|]. rewrite render_cons. cbn [segs map render_segs]. fold (segs r). rewrite IH. reflexivity. Qed.

Lemma segs_snoc_key (pa : addr) k : segs (pa ++ [SKey k])%list = (segs pa ++ [esc_tok k])%list.
Proof. unfold segs. rewrite map_app. reflexivity. Qed.
Lemma segs_snoc_idx (pa : addr) i : segs (pa ++ [SIdx i])%list = (segs pa ++ [Wire.show_nat i])%list.
Proof. unfold segs. rewrite map_app. cbn [map etok tokstr]. unfold etok. cbn [tokstr]. rewrite (esc_tok_digits _ (show_nat_digits i)). reflexivity. Qed.

Section Y.
Variable marked : list string -> bool.

Definition arr_addrs (rec : addr -> json -> list addr) (pa : addr) : nat -> list json -> list addr :=
  fix go (i : nat) (l : list json) : list addr :=
    match l with
    | [] => []
    | x :: r => ((match x with
                  | JStr _ => if marked (segs (pa ++ [SIdx i])%list) then [(pa ++ [SIdx i])%list] else []
                  | _ => rec (pa ++ [SIdx i])%list x end) ++ go (S i) r)%list
    end.

Definition obj_addrs (rec : addr -> json -> list addr) (pa : addr) : list (string * json) -> list addr :=
  fix go (l : list (string * json)) : list addr :=
    match l with
    | [] => []
    | (k, v) :: r => ((rec (pa ++ [SKey k])%list v ++ (if marked (segs (pa ++ [SKey k])%list) then [(pa ++ [SKey k])%list] else [])) ++ go r)%list
    end.

(* the addresses of the tagged nodes, in the order parse_yaml reports them *)
Fixpoint eaddrs (pa : addr) (j : json) : list addr :=
  match j with
  | JArr xs => arr_addrs eaddrs pa 0 xs
  | JObj kvs => obj_addrs eaddrs pa kvs
  | _ => []
  end.

Theorem epaths_eaddrs : forall j pa, epaths marked (segs pa) j = map render (eaddrs pa j).
Proof.
  induction j as [| b | l | s | xs IH | kvs IH] using json_ind'; intros pa; try reflexivity.
  - rewrite epaths_arr. cbn [eaddrs]. generalize 0 as i. induction IH as [|x r Hx _ IHr]; intros i; [reflexivity|].
    cbn [epaths_items arr_addrs]. rewrite map_app. rewrite <- IHr. f_equal.
    rewrite <- segs_snoc_idx. destruct x; try (rewrite Hx; reflexivity).
    destruct (marked (segs (pa ++ [SIdx i])%list)); [|reflexivity]. cbn [map]. rewrite render_segs_segs. reflexivity.
  - rewrite epaths_obj. cbn [eaddrs]. induction IH as [|[k v] r Hv _ IHr]; [reflexivity|].
    cbn [epaths_members obj_addrs]. rewrite !map_app. rewrite <- IHr. cbn [snd] in Hv. rewrite <- segs_snoc_key. rewrite Hv. f_equal. f_equal.
    destruct (marked (segs (pa ++ [SKey k])%list)); [|reflexivity]. cbn [map]. rewrite render_segs_segs. reflexivity.
Qed.

Definition below (pa : addr) (j : json) (a : addr) : Prop := exists suf, suf <> [] /\ a = (pa ++ suf)%list /\ jat suf j.

(* what a child contributes to the addresses of its parent: the child's own address p, or addresses below it *)
Definition under (p : addr) (j : json) (a : addr) : Prop := exists suf, a = (p ++ suf)%list /\ jat suf j.
(* what eaddrs_below says of a well-formed j, as the induction hypothesis about a child *)
Definition sound (j : json) : Prop := forall pa, Forall (below pa j) (eaddrs pa j).

Lemma below_under p j a : below p j a -> under p j a.
Proof. intros (suf & _ & Ha & Hat). exists suf. split; assumption. Qed.

Lemma under_self p j : under p j p.
Proof. exists []. split; [symmetry; apply app_nil_r|exact I]. Qed.

Lemma under_step pa s x j a : (forall suf, jat suf x -> jat (s :: suf) j) -> under (pa ++ [s])%list x a -> below pa j a.
Proof.
  intros Hstep (suf & -> & Hat). exists (s :: suf). split; [discriminate|]. split; [rewrite <- app_assoc; reflexivity|exact (Hstep suf Hat)].
Qed.

Lemma item_under pa i x : sound x ->
  Forall (under (pa ++ [SIdx i])%list x)
    (match x with
     | JStr _ => if marked (segs (pa ++ [SIdx i])%list) then [(pa ++ [SIdx i])%list] else []
     | _ => eaddrs (pa ++ [SIdx i])%list x end).
Proof.
  intros Hx. destruct x; try (eapply Forall_impl; [apply below_under|apply Hx]).
  destruct (marked _); repeat constructor. apply under_self.
Qed.

Lemma member_under pa k v : sound v ->
  Forall (under (pa ++ [SKey k])%list v)
    (eaddrs (pa ++ [SKey k])%list v ++ (if marked (segs (pa ++ [SKey k])%list) then [(pa ++ [SKey k])%list] else []))%list.
Proof.
  intros Hv. apply Forall_app. split; [eapply Forall_impl; [apply below_under|apply Hv]|].
  destruct (marked _); repeat constructor. apply under_self.
Qed.

Lemma arr_addrs_under pa l : Forall sound l -> forall i,
  Forall (fun a => exists k x, nth_error l k = Some x /\ under (pa ++ [SIdx (i + k)])%list x a) (arr_addrs eaddrs pa i l).
Proof.
  induction 1 as [|x r Hx _ IHr]; intros i; [constructor|]. cbn [arr_addrs]. apply Forall_app. split.
  - eapply Forall_impl; [|exact (item_under pa i x Hx)]. intros a Ha. exists 0, x. rewrite Nat.add_0_r. split; [reflexivity|exact Ha].
  - eapply Forall_impl; [|exact (IHr (S i))]. intros a (k & y & Hk & Ha). exists (S k), y. rewrite Nat.add_succ_r. split; assumption.
Qed.

Lemma obj_addrs_under pa kvs : Forall (fun kv : string * json => sound (snd kv)) kvs ->
  Forall (fun a => exists k v, In (k, v) kvs /\ under (pa ++ [SKey k])%list v a) (obj_addrs eaddrs pa kvs).
Proof.
  induction 1 as [|[k v] r Hv _ IHr]; [constructor|]. cbn [obj_addrs]. cbn [snd] in Hv. apply Forall_app. split.
  - eapply Forall_impl; [|exact (member_under pa k v Hv)]. intros a Ha. exists k, v. split; [left; reflexivity|exact Ha].
  - eapply Forall_impl; [|exact IHr]. intros a (k' & v' & Hin & Ha). exists k', v'. split; [right; exact Hin|exact Ha].
Qed.

Theorem eaddrs_below : forall j, jwf j -> forall pa, Forall (below pa j) (eaddrs pa j).
Proof.
  intros j Hw. induction Hw as [| b | l | s | xs IH | kvs Hs IH] using jwf_ind'; intros pa; try constructor.
  - apply Forall_and_inv in IH as [_ Hsound]. cbn [eaddrs].
    eapply Forall_impl; [|exact (arr_addrs_under pa xs Hsound 0)].
    intros a (k & x & Hk & Ha). apply (under_step pa (SIdx k) x); [|exact Ha].
    intros suf Hat. cbn [jat]. rewrite Hk. exact Hat.
  - apply Forall_and_inv in IH as [_ Hsound]. cbn [eaddrs].
    eapply Forall_impl; [|exact (obj_addrs_under pa kvs Hsound)].
    intros a (k & v & Hin & Ha). apply (under_step pa (SKey k) v); [|exact Ha].
    intros suf Hat. cbn [jat]. rewrite (obj_get_unique k v kvs (ssorted_nodup _ Hs) Hin). exact Hat.
Qed.

Lemma ordered_app l1 l2 : ordered l1 -> ordered l2 -> (forall a a', In a l1 -> In a' l2 -> ~ prefix a a') -> ordered (l1 ++ l2)%list.
Proof.
  induction l1 as [|a r IH]; intros H1 H2 Hx; [exact H2|]. cbn [app ordered] in *. destruct H1 as [Ha Hr]. split.
  - apply Forall_app. split; [exact Ha|]. apply Forall_forall. intros a' Hin. apply Hx; [left; reflexivity|exact Hin].
  - apply IH; [exact Hr|exact H2|]. intros b b' Hb Hb'. apply Hx; [right; exact Hb|exact Hb'].
Qed.

Lemma not_prefix_longer (p suf : addr) : suf <> [] -> ~ prefix (p ++ suf)%list p.
Proof.
  intros Hne [c Hc]. apply (f_equal (@List.length _)) in Hc. rewrite !app_length in Hc. destruct suf; [congruence|]. cbn in Hc. lia.
Qed.

Lemma under_not_prefix pa s1 s2 x1 x2 a1 a2 :
  s1 <> s2 -> under (pa ++ [s1])%list x1 a1 -> under (pa ++ [s2])%list x2 a2 -> ~ prefix a1 a2.
Proof.
  intros Hne (u1 & -> & _) (u2 & -> & _) [c Hc]. rewrite <- !app_assoc in Hc. apply app_inv_head in Hc.
  injection Hc as Hq _. congruence.
Qed.

Theorem eaddrs_ordered : forall j, jwf j -> forall pa, ordered (eaddrs pa j).
Proof.
  intros j Hw. induction Hw as [| b | l | s | xs IH | kvs Hs IH] using jwf_ind'; intros pa; try exact I.
  - cbn [eaddrs]. generalize 0 as i.
    induction IH as [|x r [Hjx Hx] Hr IHr]; intros i; [exact I|]. cbn [arr_addrs].
    apply ordered_app.
    + destruct x; try apply Hx. destruct (marked _); cbn; auto.
    + apply IHr.
    + (* an address of item i against one of a later item *)
      intros a a' Ha Ha'.
      pose proof (item_under pa i x (eaddrs_below x Hjx)) as Hi. rewrite Forall_forall in Hi.
      assert (Hsr : Forall sound r) by (eapply Forall_impl; [|exact Hr]; intros y [Hjy _]; exact (eaddrs_below y Hjy)).
      pose proof (arr_addrs_under pa r Hsr (S i)) as Hl. rewrite Forall_forall in Hl. destruct (Hl _ Ha') as (k & y & _ & Hy).
      apply (under_not_prefix pa (SIdx i) (SIdx (S i + k)) x y); [|exact (Hi _ Ha)|exact Hy].
      intros Hq. injection Hq as Hq. lia.
  - cbn [eaddrs]. apply ssorted_nodup in Hs as Hnd. clear Hs.
    induction IH as [|[k v] r [Hjv Hv] Hr IHr]; [exact I|]. cbn [fst snd] in *.
    inversion Hnd as [|? ? Hnk Hndr]; subst. cbn [obj_addrs].
    pose proof (eaddrs_below v Hjv) as Hb.
    apply ordered_app; [apply ordered_app| |].
    + apply Hv.
    + destruct (marked _); cbn; auto.
    + (* the addresses below the member against the member itself *)
      intros a a' Ha Ha'. destruct (marked _); [|destruct Ha']. destruct Ha' as [<-|[]].
      specialize (Hb (pa ++ [SKey k])%list). rewrite Forall_forall in Hb.
      destruct (Hb _ Ha) as (suf & Hne & -> & _). apply not_prefix_longer. exact Hne.
    + apply IHr. exact Hndr.
    + (* an address of this member against one of a later member: the keys differ *)
      intros a a' Ha Ha'.
      pose proof (member_under pa k v Hb) as Hm. rewrite Forall_forall in Hm.
      assert (Hsr : Forall (fun kv : string * json => sound (snd kv)) r)
        by (eapply Forall_impl; [|exact Hr]; intros kv [Hj _]; exact (eaddrs_below _ Hj)).
      pose proof (obj_addrs_under pa r Hsr) as Hl. rewrite Forall_forall in Hl. destruct (Hl _ Ha') as (k' & v' & Hin & Hy).
      apply (under_not_prefix pa (SKey k) (SKey k') v v'); [|exact (Hm _ Ha)|exact Hy].
      intros Hq. injection Hq as ->. apply Hnk. apply (in_map fst) in Hin. exact Hin.
Qed.
End Y.
