(* closedR depends on R only through the digests of hidden nodes, holds of R0, and survives the opening of an exposed
   node (closedR_add). *)
From Coq Require Import List String.
Import ListNotations.
Require Import SDJ.Json SDJ.ATree SDJ.T2c SDJ.T2d SDJ.T2e SDJ.T2k.
Local Open Scope string_scope.

Section I.
Variable H : string -> string.
Variable enc : list json -> string.
Notation hdigs := (hdigs H enc).
Notation hdigs_item := (hdigs_item H enc).
Notation hdigs_mem := (hdigs_mem H enc).
Notation Exposed := (Exposed H enc).
Notation closedR := (closedR H enc).
Notation closed_sub := (closed_sub H enc).
Notation iclosed := (iclosed H enc).
Notation mclosed := (mclosed H enc).

Lemma closed_sub_ext (C C' : atree -> Prop) R R' o s :
  (forall g, In g (hdigs s) -> R g = R' g) -> (C s -> C' s) -> closed_sub C R o s -> closed_sub C' R' o s.
Proof.
  intros Hx HC. destruct o as [[|]|]; cbn; [exact HC| |trivial].
  intros Hc g Hg. rewrite <- Hx by assumption. auto.
Qed.

Lemma iclosed_ext R R' it :
  (forall g, In g (hdigs_item it) -> R g = R' g) -> (closedR R (snd it) -> closedR R' (snd it)) -> iclosed R it -> iclosed R' it.
Proof.
  intros Hx HC. unfold T2e.iclosed. rewrite <- (iopened_ext _ _ R R' it Hx).
  apply closed_sub_ext; [intros g Hg; apply Hx, hdigs_sub_item, Hg|exact HC].
Qed.
Lemma mclosed_ext R R' m :
  (forall g, In g (hdigs_mem m) -> R g = R' g) -> (closedR R (snd (snd m)) -> closedR R' (snd (snd m))) -> mclosed R m -> mclosed R' m.
Proof.
  intros Hx HC. unfold T2e.mclosed. rewrite <- (mopened_ext _ _ R R' m Hx).
  apply closed_sub_ext; [intros g Hg; apply Hx, hdigs_sub_mem, Hg|exact HC].
Qed.

Lemma closedR_ext R R' : forall t, (forall g, In g (hdigs t) -> R g = R' g) -> closedR R t -> closedR R' t.
Proof.
  induction t as [j | items IH | mems IH] using atree_ind_in; intros Hx Hc; [exact I| |].
  - apply closedR_arr. apply closedR_arr in Hc. rewrite Forall_forall in *. intros it Hin.
    assert (Hit : forall g, In g (hdigs_item it) -> R g = R' g) by (intros g Hg; apply Hx, (hdigs_arr_in _ _ _ _ _ Hin Hg)).
    apply (iclosed_ext R R'); [exact Hit| |apply Hc, Hin].
    apply IH; [assumption|]. intros g Hg. apply Hit, hdigs_sub_item, Hg.
  - apply closedR_obj. apply closedR_obj in Hc. rewrite Forall_forall in *. intros m Hin.
    assert (Hm : forall g, In g (hdigs_mem m) -> R g = R' g) by (intros g Hg; apply Hx, (hdigs_obj_in _ _ _ _ _ Hin Hg)).
    apply (mclosed_ext R R'); [exact Hm| |apply Hc, Hin].
    apply IH; [assumption|]. intros g Hg. apply Hm, hdigs_sub_mem, Hg.
Qed.

Lemma closedR_R0 : forall t, closedR R0 t.
Proof.
  induction t as [j | items IH | mems IH] using atree_ind_in; [exact I| |].
  - apply closedR_arr, Forall_forall. intros [[|salt|g] s] Hin; unfold T2e.iclosed; cbn; [exact (IH _ Hin)|reflexivity|exact I].
  - apply closedR_obj, Forall_forall. intros [name [[|salt|l] s]] Hin; unfold T2e.mclosed; cbn; [exact (IH _ Hin)|reflexivity|exact I].
Qed.

Lemma iclosed_Radd_other R g it : ~ In g (hdigs_item it) -> iclosed R it -> iclosed (Radd R g) it.
Proof.
  intros Hn.
  assert (Hx : forall g', In g' (hdigs_item it) -> R g' = Radd R g g') by (intros g' Hg'; symmetry; apply Radd_other; intros ->; contradiction).
  apply iclosed_ext; [exact Hx|]. apply closedR_ext. intros g' Hg'. apply Hx, hdigs_sub_item, Hg'.
Qed.
Lemma mclosed_Radd_other R g m : ~ In g (hdigs_mem m) -> mclosed R m -> mclosed (Radd R g) m.
Proof.
  intros Hn.
  assert (Hx : forall g', In g' (hdigs_mem m) -> R g' = Radd R g g') by (intros g' Hg'; symmetry; apply Radd_other; intros ->; contradiction).
  apply mclosed_ext; [exact Hx|]. apply closedR_ext. intros g' Hg'. apply Hx, hdigs_sub_mem, Hg'.
Qed.

Lemma closedR_Radd_below R g s : (forall g', In g' (hdigs s) -> R g' = false) -> ~ In g (hdigs s) -> closedR (Radd R g) s.
Proof.
  intros Hc Hn. apply (closedR_ext R0); [|apply closedR_R0].
  intros g' Hg'. symmetry. rewrite Radd_other; [auto|]. intros ->. contradiction.
Qed.

Theorem closedR_add R g k v : forall t, NoDup (hdigs t) -> closedR R t -> Exposed R g k v t -> closedR (Radd R g) t.
Proof.
  intros t Hnd Hc Hex. revert Hnd Hc.
  induction Hex as [items salt s Hin Hg HRg _ _ | items ik s Hin Hop Hex IH
                   | mems name salt s Hin Hg HRg _ _ | mems name mk s Hin Hop Hex IH]; intros Hnd Hc.
  - rewrite hdigs_arr in Hnd. apply closedR_arr in Hc. apply closedR_arr.
    apply (Forall_but_one hdigs_item (iclosed R) _ items _ g Hnd Hin);
      [left; symmetry; exact Hg|intros y _; apply iclosed_Radd_other| |exact Hc].
    unfold T2e.iclosed. cbn. rewrite <- Hg, Radd_same, HRg. intros Hs. apply closedR_Radd_below; [exact Hs|].
    apply (NoDup_flat_map_in _ _ _ Hnd) in Hin. cbn in Hin. rewrite <- Hg in Hin. apply NoDup_cons_iff in Hin. apply Hin.
  - rewrite hdigs_arr in Hnd. apply closedR_arr in Hc. apply closedR_arr.
    apply (Forall_but_one hdigs_item (iclosed R) _ items _ g Hnd Hin);
      [apply hdigs_sub_item, (Exposed_hdigs _ _ _ _ _ _ _ Hex)|intros y _; apply iclosed_Radd_other| |exact Hc].
    unfold T2e.iclosed. rewrite (iopened_Radd _ _ _ g _ Hop), Hop. apply IH.
    exact (NoDup_hdigs_item _ _ _ (NoDup_flat_map_in _ _ _ Hnd Hin)).
  - rewrite hdigs_obj in Hnd. apply closedR_obj in Hc. apply closedR_obj.
    apply (Forall_but_one hdigs_mem (mclosed R) _ mems _ g Hnd Hin);
      [left; symmetry; exact Hg|intros y _; apply mclosed_Radd_other| |exact Hc].
    unfold T2e.mclosed. cbn. rewrite <- Hg, Radd_same, HRg. intros Hs. apply closedR_Radd_below; [exact Hs|].
    apply (NoDup_flat_map_in _ _ _ Hnd) in Hin. cbn in Hin. rewrite <- Hg in Hin. apply NoDup_cons_iff in Hin. apply Hin.
  - rewrite hdigs_obj in Hnd. apply closedR_obj in Hc. apply closedR_obj.
    apply (Forall_but_one hdigs_mem (mclosed R) _ mems _ g Hnd Hin);
      [apply hdigs_sub_mem, (Exposed_hdigs _ _ _ _ _ _ _ Hex)|intros y _; apply mclosed_Radd_other| |exact Hc].
    unfold T2e.mclosed. rewrite (mopened_Radd _ _ _ g _ Hop), Hop. apply IH.
    exact (NoDup_hdigs_mem _ _ _ (NoDup_flat_map_in _ _ _ Hnd Hin)).
Qed.
End I.
