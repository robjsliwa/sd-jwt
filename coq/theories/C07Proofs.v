(* C07: a built disclosure decodes back to its name and value; its digest is the hash of its string. *)
From Coq Require Import List String Ascii Bool Arith.
Import ListNotations.
Require Import SDJ.Json SDJ.Model2 SDJ.Split SDJ.Restore2 SDJ.T1j SDJ.Issuer1 SDJ.Issuer2.
Local Open Scope string_scope.

Theorem built_disclosure_decodes E (dec : string -> dec_result) salt key v :
  (forall ps, dec (ie_enc E ps) = DJson (JArr ps)) ->
  (match key with Some k => reserved k = false | None => True end) ->
  from_base64 (ie_hash E) dec (d_str (mk_disc E salt key v)) = Ok (mk_disc E salt key v).
Proof. exact (mk_disc_decodes (ie_hash E) (ie_enc E) dec salt key v). Qed.

Theorem built_disclosure_digest E salt key v :
  d_digest (mk_disc E salt key v) = ie_hash E (d_str (mk_disc E salt key v)).
Proof. reflexivity. Qed.

(* the issuer's token is <JWT>~<d1>~...~<dn>~ : splitting it gives the JWT, the disclosures, no KB-JWT *)
Lemma fold_serialise jwt ds : fold_left (fun acc d => acc ++ "~" ++ d_str d) ds jwt = join "~" (jwt :: map d_str ds).
Proof.
  revert jwt. induction ds as [|d r IH]; intros jwt; [reflexivity|]. cbn [fold_left map]. rewrite IH.
  destruct r as [|d2 r2]; cbn; rewrite ?append_assoc_; reflexivity.
Qed.

Theorem token_framing (E : issue_env) jwt ds :
  Forall (fun x => contains tilde x = false) (jwt :: map d_str ds) ->
  sd_jwt_parts (serialise_token jwt ds) = (jwt, map d_str ds, None).
Proof.
  intros HF. unfold serialise_token. rewrite fold_serialise.
  change (join "~" (jwt :: map d_str ds) ++ "~") with (serialise jwt (map d_str ds) "").
  rewrite sd_jwt_parts_serialise by (assumption || reflexivity). reflexivity.
Qed.
