(* Conformant token trees (wf) and all digests embedded in one (alldigs). What restore1 looks at, for a view of a
   conformant tree: it is sdwf, only digests of alldigs occur in it, its height is at most aheight. Each of the three by
   a lemma for one element, one for one member, and an induction. *)
From Coq Require Import List String Bool Arith Lia Sorting.Sorted.
Import ListNotations.
Require Import SDJ.Json SDJ.Model2 SDJ.ATree SDJ.T2a SDJ.T2b SDJ.T2d.
Local Open Scope string_scope.

Section C.
Variable H : string -> string.
Variable enc : list json -> string.
Notation blind := (blind H enc).
Notation view := (view H enc).
Notation dig_item := (dig_item H enc).
Notation dig_mem := (dig_mem H enc).
Notation view_item := (view_item H enc).
Notation view_mem := (view_mem H enc).
Notation vitem R := (ATree.view_item H enc (view R) R).

Definition adigs_item (alldigs : atree -> list string) (it : ikind * atree) : list string :=
  let '(k, s) := it in
  match k with IPlain => alldigs s | IHid salt => dig_item salt s :: alldigs s | IDecoy g => [g] end.
Definition adigs_mem (alldigs : atree -> list string) (m : string * (mkind * atree)) : list string :=
  let '(name, (k, s)) := m in
  match k with MPlain => alldigs s | MHid salt => alldigs s | MSd l => l end.

Fixpoint alldigs (t : atree) : list string :=
  match t with
  | ALeaf _ => []
  | AArr items => flat_map (fun it => let '(k, s) := it in
       match k with IPlain => alldigs s | IHid salt => dig_item salt s :: alldigs s | IDecoy g => [g] end) items
  | AObj mems => flat_map (fun m => let '(name, (k, s)) := m in
       match k with MPlain => alldigs s | MHid salt => alldigs s | MSd l => l end) mems
  end.
Lemma alldigs_arr items : alldigs (AArr items) = flat_map (adigs_item alldigs) items.
Proof. reflexivity. Qed.
Lemma alldigs_obj mems : alldigs (AObj mems) = flat_map (adigs_mem alldigs) mems.
Proof. reflexivity. Qed.

Definition scalar (j : json) : Prop := match j with JArr _ | JObj _ => False | _ => True end.
Definition sd_of (mems : list (string * (mkind * atree))) : list string :=
  flat_map (fun m => match fst (snd m) with MSd l => l | _ => [] end) mems.

Definition mem_ok (mems : list (string * (mkind * atree))) (m : string * (mkind * atree)) : Prop :=
  let '(name, (k, s)) := m in
  name <> "..." /\
  match k with
  | MSd _ => name = "_sd" /\ s = ALeaf JNull
  | MPlain => name <> "_sd"
  | MHid salt => name <> "_sd" /\ In (dig_mem salt name s) (sd_of mems) end.

Definition item_ok (it : ikind * atree) : Prop :=
  match fst it with IDecoy _ => snd it = ALeaf JNull | _ => True end.

Inductive wf : atree -> Prop :=
| wf_leaf j : scalar j -> wf (ALeaf j)
| wf_arr items : Forall (fun it => wf (snd it)) items -> Forall item_ok items -> wf (AArr items)
| wf_obj mems :
    StronglySorted slt (map fst mems) ->
    Forall (fun m => wf (snd (snd m))) mems ->
    Forall (mem_ok mems) mems ->
    wf (AObj mems).

(* bounds the height of every view (height_view); 2 is the height of a placeholder and bounds that of an _sd array of strings *)
Fixpoint aheight (t : atree) : nat :=
  match t with
  | ALeaf _ => 1
  | AArr items => S (fold_right (fun it m => Nat.max (let '(k, s) := it in
        match k with IPlain => aheight s | _ => Nat.max 2 (aheight s) end) m) 0 items)
  | AObj mems => S (fold_right (fun mm m => Nat.max (let '(name, (k, s)) := mm in
        match k with MSd _ => 2 | _ => aheight s end) m) 0 mems)
  end.

Definition item_h (it : ikind * atree) : nat :=
  let '(k, s) := it in match k with IPlain => aheight s | _ => Nat.max 2 (aheight s) end.
Definition mem_h (mm : string * (mkind * atree)) : nat :=
  let '(name, (k, s)) := mm in match k with MSd _ => 2 | _ => aheight s end.
Lemma aheight_arr items : aheight (AArr items) = S (hmax item_h items).
Proof. reflexivity. Qed.
Lemma aheight_obj mems : aheight (AObj mems) = S (hmax mem_h mems).
Proof. reflexivity. Qed.

Lemma aheight_item items it n : aheight (AArr items) <= S n -> In it items -> item_h it <= n.
Proof. intros Hh Hin. rewrite aheight_arr in Hh. exact (Nat.le_trans _ _ _ (hmax_in item_h _ _ Hin) (le_S_n _ _ Hh)). Qed.
Lemma aheight_mem mems m n : aheight (AObj mems) <= S n -> In m mems -> mem_h m <= n.
Proof. intros Hh Hin. rewrite aheight_obj in Hh. exact (Nat.le_trans _ _ _ (hmax_in mem_h _ _ Hin) (le_S_n _ _ Hh)). Qed.
Lemma aheight_le_item_h it : aheight (snd it) <= item_h it.
Proof. destruct it as [[|salt|g] s]; cbn [snd item_h]; lia. Qed.
Lemma aheight_le_mem_h mems m : mem_ok mems m -> aheight (snd (snd m)) <= mem_h m.
Proof.
  destruct m as [name [[|salt|l] s]]; cbn [mem_ok snd mem_h]; intros Hok; [lia|lia|].
  destruct Hok as (_ & _ & ->). cbn. lia.
Qed.

Lemma wf_arr_in items it : wf (AArr items) -> In it items -> wf (snd it) /\ item_ok it.
Proof. intros Hw Hin. inversion Hw as [| ? Hall Hok |]; subst. rewrite Forall_forall in Hall, Hok. auto. Qed.
Lemma wf_obj_in mems m : wf (AObj mems) -> In m mems -> wf (snd (snd m)) /\ mem_ok mems m.
Proof. intros Hw Hin. inversion Hw as [| | ? _ Hall Hok]; subst. rewrite Forall_forall in Hall, Hok. auto. Qed.
Lemma wf_obj_sorted mems : wf (AObj mems) -> StronglySorted slt (map fst mems).
Proof. intros Hw. inversion Hw; assumption. Qed.

Lemma aheight_item_le items it n : aheight (AArr items) <= S n -> In it items -> aheight (snd it) <= n.
Proof. intros Hh Hin. exact (Nat.le_trans _ _ _ (aheight_le_item_h it) (aheight_item _ _ _ Hh Hin)). Qed.
Lemma aheight_mem_le mems m n : wf (AObj mems) -> aheight (AObj mems) <= S n -> In m mems -> aheight (snd (snd m)) <= n.
Proof.
  intros Hw Hh Hin. destruct (wf_obj_in _ _ Hw Hin) as [_ Hok].
  exact (Nat.le_trans _ _ _ (aheight_le_mem_h mems m Hok) (aheight_mem _ _ _ Hh Hin)).
Qed.

Lemma wf_ind_in (P : atree -> Prop) :
  (forall j, scalar j -> P (ALeaf j)) ->
  (forall items, wf (AArr items) -> (forall it, In it items -> P (snd it)) -> P (AArr items)) ->
  (forall mems, wf (AObj mems) -> (forall m, In m mems -> P (snd (snd m))) -> P (AObj mems)) ->
  forall t, wf t -> P t.
Proof.
  intros Hl Ha Ho. induction t as [j | items IH | mems IH] using atree_ind_in; intros Hw.
  - inversion Hw. auto.
  - apply Ha; [assumption|]. intros it Hin. apply IH, (wf_arr_in _ _ Hw Hin). assumption.
  - apply Ho; [assumption|]. intros m Hin. apply IH, (wf_obj_in _ _ Hw Hin). assumption.
Qed.

Lemma alldigs_sub_item it : item_ok it -> incl (alldigs (snd it)) (adigs_item alldigs it).
Proof.
  destruct it as [[|salt|g] s]; unfold item_ok; cbn [fst snd adigs_item]; intros Hok;
    [apply incl_refl|apply incl_tl, incl_refl|subst s; intros g' []].
Qed.
Lemma alldigs_sub_mem mems m : mem_ok mems m -> incl (alldigs (snd (snd m))) (adigs_mem alldigs m).
Proof.
  destruct m as [name [[|salt|l] s]]; cbn [mem_ok fst snd adigs_mem]; intros Hok; [apply incl_refl|apply incl_refl|].
  destruct Hok as (_ & _ & ->). intros g [].
Qed.
Lemma NoDup_alldigs_item it : item_ok it -> NoDup (adigs_item alldigs it) -> NoDup (alldigs (snd it)).
Proof.
  destruct it as [[|salt|g] s]; unfold item_ok; cbn [fst snd adigs_item]; intros Hok Hnd;
    [assumption|inversion Hnd; assumption|subst s; constructor].
Qed.
Lemma NoDup_alldigs_mem mems m : mem_ok mems m -> NoDup (adigs_mem alldigs m) -> NoDup (alldigs (snd (snd m))).
Proof.
  destruct m as [name [[|salt|l] s]]; cbn [mem_ok fst snd adigs_mem]; intros Hok Hnd; [assumption|assumption|].
  destruct Hok as (_ & _ & ->). constructor.
Qed.
Lemma NoDup_alldigs_arr_in items it : wf (AArr items) -> NoDup (alldigs (AArr items)) -> In it items -> NoDup (alldigs (snd it)).
Proof.
  intros Hw Hnd Hin. rewrite alldigs_arr in Hnd.
  exact (NoDup_alldigs_item it (proj2 (wf_arr_in _ _ Hw Hin)) (NoDup_flat_map_in _ _ _ Hnd Hin)).
Qed.
Lemma NoDup_alldigs_obj_in mems m : wf (AObj mems) -> NoDup (alldigs (AObj mems)) -> In m mems -> NoDup (alldigs (snd (snd m))).
Proof.
  intros Hw Hnd Hin. rewrite alldigs_obj in Hnd.
  exact (NoDup_alldigs_mem mems m (proj2 (wf_obj_in _ _ Hw Hin)) (NoDup_flat_map_in _ _ _ Hnd Hin)).
Qed.

Lemma view_R0_blind : forall t, view R0 t = blind t.
Proof.
  induction t as [j | items IH | mems IH] using atree_ind_in; [reflexivity| |]; cbn; f_equal.
  - apply map_ext_in. intros [k s] Hin. specialize (IH _ Hin). destruct k; cbn in *; auto.
  - apply flat_map_ext_in'. intros [name [k s]] Hin. specialize (IH _ Hin). destruct k; cbn in *; rewrite ?IH; reflexivity.
Qed.

Lemma forallb_map {A B} (f : A -> B) p l : forallb p (map f l) = forallb (fun x => p (f x)) l.
Proof. induction l; cbn; congruence. Qed.
Lemma existsb_map {A B} (f : A -> B) p l : existsb p (map f l) = existsb (fun x => p (f x)) l.
Proof. induction l; cbn; congruence. Qed.

Lemma in_view_mem (v : atree -> json) R m kv : In kv (view_mem v R m) ->
  fst kv = fst m /\ snd kv = match fst (snd m) with MSd l => JArr (map JStr l) | _ => v (snd (snd m)) end.
Proof.
  destruct m as [name [[|salt|l] s]]; cbn [ATree.view_mem fst snd]; [|destruct (R _); [|intros []]|];
    intros [<-|[]]; split; reflexivity.
Qed.

Lemma keys_view_mems (v : atree -> json) R (mems : list (string * (mkind * atree))) k :
  In k (map fst (flat_map (view_mem v R) mems)) -> In k (map fst mems).
Proof.
  intros Hk. apply in_map_iff in Hk as [kv [<- Hkv]]. apply in_flat_map in Hkv as [m [Hm Hkv]].
  apply in_view_mem in Hkv as [-> _]. apply in_map. assumption.
Qed.

Lemma view_obj_no_dots (v : atree -> json) R mems : wf (AObj mems) -> obj_get "..." (flat_map (view_mem v R) mems) = None.
Proof.
  intros Hw. apply obj_get_none. intros Hk. apply keys_view_mems, in_map_iff in Hk as [[name [mk s]] [Hn Hin]].
  cbn in Hn. subst name. destruct (wf_obj_in _ _ Hw Hin) as [_ [Hdots _]]. contradiction.
Qed.

Lemma placeholder_of_view R s : wf s -> placeholder_of (view R s) = Ok None.
Proof.
  intros Hw. destruct s as [j | items | mems]; [inversion Hw; subst; destruct j; cbn in *; tauto || reflexivity | reflexivity |].
  rewrite view_obj. unfold placeholder_of. rewrite view_obj_no_dots by assumption. reflexivity.
Qed.

Lemma scalar_sdwf j : scalar j -> sdwf j = true.
Proof. destruct j; cbn; reflexivity || intros []. Qed.

Lemma sdwf_placeholder g : sdwf (placeholder g) = true.
Proof. reflexivity. Qed.

Lemma sdwf_view_item (v : atree -> json) R it : sdwf (v (snd it)) = true -> sdwf (view_item v R it) = true.
Proof.
  destruct it as [[|salt|g] s]; cbn [ATree.view_item snd]; intros Hs; [assumption| |reflexivity].
  destruct (R _); [assumption|reflexivity].
Qed.

Lemma sdwf_view_mem (v : atree -> json) R mems m kv :
  mem_ok mems m -> sdwf (v (snd (snd m))) = true -> In kv (view_mem v R m) -> wf_mem sdwf kv = true.
Proof.
  intros Hn Hs Hin. destruct kv as [k j]. apply in_view_mem in Hin as [Hk Hj]. cbn [fst snd] in Hk, Hj. subst k j.
  destruct m as [name [[|salt|l] s]]; cbn [mem_ok fst snd wf_mem] in *.
  1,2: assert (Hk : name <> "_sd") by tauto; apply String.eqb_neq in Hk; rewrite Hk, Hs; reflexivity.
  destruct Hn as (_ & -> & _). cbn. rewrite forallb_map. apply forallb_forall. reflexivity.
Qed.

Lemma sdwf_view R : forall t, wf t -> sdwf (view R t) = true.
Proof.
  apply wf_ind_in.
  - apply scalar_sdwf.
  - intros items _ IH. rewrite view_arr. cbn [sdwf]. rewrite forallb_map. apply forallb_forall.
    intros it Hin. apply sdwf_view_item, IH, Hin.
  - intros mems Hw IH. rewrite view_obj, sdwf_obj, view_obj_no_dots by assumption. apply forallb_forall.
    intros kv Hkv. apply in_flat_map in Hkv as [m [Hm Hkv]].
    eapply sdwf_view_mem; [eapply wf_obj_in; eassumption|apply IH, Hm|exact Hkv].
Qed.

Lemma sdwf_vitem R it : wf (snd it) -> sdwf (vitem R it) = true.
Proof. intros Hw. apply sdwf_view_item, sdwf_view, Hw. Qed.

Lemma occurs_strs g l : occurs g (JArr (map JStr l)) = false.
Proof. cbn. induction l; cbn; auto. Qed.
Lemma existsb_strs g l : existsb (fun x => json_eqb_str x g) (map JStr l) = true -> In g l.
Proof. induction l as [|a r IH]; cbn; [discriminate|]. destruct (String.eqb_spec a g); auto. Qed.
Lemma existsb_strs_in g l : In g l -> existsb (fun x => json_eqb_str x g) (map JStr l) = true.
Proof. intros Hin. apply existsb_exists. exists (JStr g). split; [apply in_map; assumption|]. cbn. apply String.eqb_refl. Qed.
Lemma occurs_placeholder g g' : occurs g (placeholder g') = true -> g' = g.
Proof. cbn. rewrite !orb_false_r. apply String.eqb_eq. Qed.

Lemma occurs_view_item (v : atree -> json) R g it :
  (occurs g (v (snd it)) = true -> In g (alldigs (snd it))) ->
  occurs g (view_item v R it) = true -> In g (adigs_item alldigs it).
Proof.
  destruct it as [[|salt|g'] s]; cbn [ATree.view_item snd adigs_item]; intros IH Ho.
  - auto.
  - destruct (R _); [right; auto|left; apply occurs_placeholder, Ho].
  - left. apply occurs_placeholder, Ho.
Qed.

Lemma occurs_view_mem (v : atree -> json) R g mems m kv :
  mem_ok mems m -> (occurs g (v (snd (snd m))) = true -> In g (alldigs (snd (snd m)))) ->
  In kv (view_mem v R m) -> occ_mem (occurs g) g kv = true -> In g (adigs_mem alldigs m).
Proof.
  intros Hn IH Hin Ho. destruct kv as [k j]. apply in_view_mem in Hin as [Hk Hj]. cbn [fst snd] in Hk, Hj. subst k j.
  destruct m as [name [[|salt|l] s]]; cbn [mem_ok fst snd adigs_mem] in *.
  1,2: rewrite occ_mem_other in Ho by tauto; apply IH, Ho.
  destruct Hn as (_ & -> & _). cbn [occ_mem] in Ho. rewrite occurs_strs, orb_false_r in Ho. apply existsb_strs, Ho.
Qed.

Lemma occurs_view R g : forall t, wf t -> occurs g (view R t) = true -> In g (alldigs t).
Proof.
  apply (wf_ind_in (fun t => occurs g (view R t) = true -> In g (alldigs t))).
  - intros j Hj Ho. destruct j; cbn in *; try discriminate; tauto.
  - intros items _ IH Ho. rewrite view_arr in Ho. cbn [occurs] in Ho. rewrite existsb_map in Ho.
    apply existsb_exists in Ho as [it [Hin Ho]].
    rewrite alldigs_arr. apply in_flat_map. exists it. split; [assumption|].
    exact (occurs_view_item (view R) R g it (IH it Hin) Ho).
  - intros mems Hw IH Ho. rewrite view_obj, occurs_obj in Ho. apply existsb_exists in Ho as [kv [Hkv Ho]].
    apply in_flat_map in Hkv as [m [Hm Hkv]].
    rewrite alldigs_obj. apply in_flat_map. exists m. split; [assumption|].
    eapply occurs_view_mem; [eapply wf_obj_in; eassumption|apply IH, Hm|exact Hkv|exact Ho].
Qed.

Lemma occurs_vitem R g it : wf (snd it) -> occurs g (vitem R it) = true -> In g (adigs_item alldigs it).
Proof. intros Hw. apply occurs_view_item, occurs_view, Hw. Qed.

Lemma height_strs l : height (JArr (map JStr l)) <= 2.
Proof. rewrite height_arr, hmax_map. apply le_n_S, hmax_bound. reflexivity. Qed.

Lemma height_placeholder g : height (placeholder g) = 2.
Proof. reflexivity. Qed.

Lemma height_view_item (v : atree -> json) R it :
  height (v (snd it)) <= aheight (snd it) -> height (view_item v R it) <= item_h it.
Proof.
  destruct it as [[|salt|g] s]; cbn [ATree.view_item snd item_h]; intros IH; [assumption| |rewrite height_placeholder; lia].
  destruct (R _); [lia|rewrite height_placeholder; lia].
Qed.

Lemma height_view_mem (v : atree -> json) R m kv :
  height (v (snd (snd m))) <= aheight (snd (snd m)) -> In kv (view_mem v R m) -> height (snd kv) <= mem_h m.
Proof.
  intros IH Hin. apply in_view_mem in Hin as [_ ->].
  destruct m as [name [[|salt|l] s]]; cbn [fst snd mem_h] in *; [assumption|assumption|apply height_strs].
Qed.

Lemma height_view R : forall t, wf t -> height (view R t) <= aheight t.
Proof.
  apply wf_ind_in.
  - intros j Hj. destruct j; cbn in *; try lia; tauto.
  - intros items _ IH. rewrite view_arr, height_arr, aheight_arr, hmax_map. apply le_n_S, hmax_le.
    intros it Hin. apply height_view_item, IH, Hin.
  - intros mems _ IH. rewrite view_obj, height_obj, aheight_obj. apply le_n_S, hmax_flat_map.
    intros m [k j] Hm Hkv. exact (height_view_mem _ R m (k, j) (IH m Hm) Hkv).
Qed.

Lemma height_vitem R it : wf (snd it) -> height (vitem R it) <= item_h it.
Proof. intros Hw. apply height_view_item, height_view, Hw. Qed.

End C.

Lemma mem_ok_mono H enc (ms ms' : list (string * (mkind * atree))) m :
  incl (sd_of ms) (sd_of ms') -> mem_ok H enc ms m -> mem_ok H enc ms' m.
Proof.
  intros Hincl. destruct m as [name [[|salt|l] s]]; cbn; [tauto| |tauto].
  intros (H1 & H2 & H3). split; [exact H1|]. split; [exact H2|exact (Hincl _ H3)].
Qed.
