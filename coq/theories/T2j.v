(* A hidden node's digest that occurs in a view is Visible there (visible): it is opened already or Exposed. *)
From Coq Require Import List String.
Import ListNotations.
Require Import SDJ.Json SDJ.ATree SDJ.T2a SDJ.T2c SDJ.T2d SDJ.T2e.
Local Open Scope string_scope.

Section J.
Variable H : string -> string.
Variable enc : list json -> string.
Notation blind := (blind H enc).
Notation view := (view H enc).
Notation dig_item := (dig_item H enc).
Notation dig_mem := (dig_mem H enc).
Notation hdigs := (hdigs H enc).
Notation alldigs := (alldigs H enc).
Notation wf := (wf H enc).
Notation adigs_item := (adigs_item H enc alldigs).
Notation adigs_mem := (adigs_mem alldigs).
Notation Exposed := (Exposed H enc).
Notation Visible := (Visible H enc).

Theorem visible R g : forall t, wf t -> NoDup (alldigs t) ->
  occurs g (view R t) = true -> In g (hdigs t) -> exists k v, Visible R g k v t.
Proof.
  apply (wf_ind_in H enc (fun t => NoDup (alldigs t) -> occurs g (view R t) = true -> In g (hdigs t) ->
                                   exists k v, Visible R g k v t)).
  - intros j _ _ _ [].
  - intros items Hw IH Hnd Ho Hh. rewrite alldigs_arr in Hnd.
    rewrite hdigs_arr in Hh. apply in_flat_map in Hh as [it' [Hin' Hh]].
    rewrite view_arr in Ho. cbn [occurs] in Ho. rewrite existsb_map in Ho. apply existsb_exists in Ho as [it [Hin Ho]].
    destruct (wf_arr_in _ _ _ _ Hw Hin) as [Hws Hok]. destruct (wf_arr_in _ _ _ _ Hw Hin') as [Hws' Hok'].
    (* the element that shows g is the one that hides it *)
    assert (it' = it) as ->.
    { apply (NoDup_flat_map_same adigs_item items _ _ g Hnd Hin' Hin); [apply hdigs_item_adigs|eapply occurs_vitem]; eassumption. }
    pose proof (NoDup_flat_map_in _ _ _ Hnd Hin) as Hndi. pose proof (NoDup_alldigs_item _ _ _ Hok Hndi) as Hnds.
    destruct it as [[|salt|g0] s]; cbn [ATree.view_item T2e.hdigs_item T2c.adigs_item snd] in *.
    + destruct (IH _ Hin Hnds Ho Hh) as (k & v & Hv). exists k, v. eapply vi_item_in; eauto.
    + destruct (R (dig_item salt s)) eqn:ER.
      * (* opened: g is below, since the element's own digest is not among those of its content *)
        destruct Hh as [<-|Hh]; [apply NoDup_cons_iff in Hndi; destruct (proj1 Hndi (occurs_view H enc R _ s Hws Ho))|].
        destruct (IH _ Hin Hnds Ho Hh) as (k & v & Hv). exists k, v. eapply vi_item_in; eauto. cbn. rewrite ER. reflexivity.
      * apply occurs_placeholder in Ho. subst g. exists None, (blind s). eapply vi_item_here; eauto.
    + unfold item_ok in Hok. cbn in Hok. subst s. destruct Hh.
  - intros mems Hw IH Hnd Ho Hh. rewrite alldigs_obj in Hnd.
    rewrite hdigs_obj in Hh. apply in_flat_map in Hh as [[name' [mk' s']] [Hin' Hh]].
    destruct (wf_obj_in _ _ _ _ Hw Hin') as [Hws' Hok'].
    assert (Hcase : (exists salt, mk' = MHid salt /\ g = dig_mem salt name' s') \/ In g (hdigs s')).
    { destruct mk'; cbn in Hh; [auto|destruct Hh as [<-|Hh]; eauto|auto]. }
    destruct Hcase as [(salt' & -> & ->)|Hbelow].
    + (* the digest of a hidden member: listed in _sd whether opened or not *)
      exists (Some name'), (blind s'). eapply vi_mem_here; eauto.
    + (* a digest below the member (name', s'): it shows below that member and nowhere else *)
      rewrite view_obj, occurs_obj in Ho. apply existsb_exists in Ho as [kv [Hkv Ho]].
      apply in_flat_map in Hkv as [m [Hin Hkv]]. destruct (wf_obj_in _ _ _ _ Hw Hin) as [Hws Hok].
      assert (m = (name', (mk', s'))) as ->.
      { apply (NoDup_flat_map_same adigs_mem mems _ _ g Hnd Hin Hin').
        - eapply occurs_view_mem; [eassumption|apply occurs_view; assumption|eassumption..].
        - apply (alldigs_sub_mem _ _ _ _ Hok'), hdigs_alldigs; assumption. }
      pose proof (NoDup_alldigs_mem _ _ _ _ Hok (NoDup_flat_map_in _ _ _ Hnd Hin)) as Hnds.
      destruct mk' as [|salt|l]; cbn [ATree.view_mem T2c.mem_ok snd] in *.
      * destruct Hkv as [<-|[]]. rewrite occ_mem_other in Ho by tauto.
        destruct (IH _ Hin Hnds Ho Hbelow) as (k & v & Hv). exists k, v. eapply vi_mem_in; eauto.
      * destruct (R (dig_mem salt name' s')) eqn:ER; [|destruct Hkv].
        destruct Hkv as [<-|[]]. rewrite occ_mem_other in Ho by tauto.
        destruct (IH _ Hin Hnds Ho Hbelow) as (k & v & Hv). exists k, v. eapply vi_mem_in; eauto. cbn. rewrite ER. reflexivity.
      * destruct Hok as (_ & _ & ->). destruct Hbelow.
Qed.

Theorem visible_cases R g : forall t, wf t -> NoDup (alldigs t) ->
  occurs g (view R t) = true -> In g (hdigs t) -> R g = true \/ exists k v, Exposed R g k v t.
Proof.
  intros t Hw Hnd Ho Hh. destruct (R g) eqn:ER; [left; reflexivity|right].
  destruct (visible R g t Hw Hnd Ho Hh) as (k & v & Hv). exists k, v. apply Visible_Exposed; assumption.
Qed.
End J.
