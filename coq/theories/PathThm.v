(* C01 / C14 at the level of path STRINGS: the issuer is given the JSON pointers (RFC 6901) of existing nodes,
   descendants before ancestors, no repeats; encode succeeds, Holder::verify returns the original claims and
   reports every disclosure under exactly the string the issuer was given for it. *)
From Coq Require Import List String Ascii Bool Arith ZArith NArith Lia Permutation.
Import ListNotations.
Require Import SDJ.Json SDJ.Wire SDJ.Model2 SDJ.Out SDJ.Restore2 SDJ.T2c SDJ.T1e SDJ.T1j SDJ.T1k SDJ.T1r SDJ.T1s SDJ.T1p
  SDJ.Split SDJ.Issuer2 SDJ.Verify.
Require Import SDJ.PathStr SDJ.Yaml SDJ.C15Proofs SDJ.YamlOrd.
Local Open Scope string_scope.

Definition node_addr (C : json) (a : addr) : Prop := a <> [] /\ jat a C /\ small a.

Lemma split_paths_render (C : json) : jwf C -> forall addrs, Forall (node_addr C) addrs ->
  exists tks, split_paths (map render addrs) = Some tks /\
              Forall2 (fun p a => jresolve Issuer2.parse_index Issuer2.parse_usize (fst p) (snd p) C = Some a) tks addrs.
Proof.
  intros Hw. induction 1 as [|a r (Hne & Hat & Hs) _ (tks & Hsp & HF)].
  - exists []. split; [reflexivity|constructor].
  - destruct (exists_last Hne) as (a' & t & ->).
    destruct (render_resolves a' t C Hw Hat Hs) as (toks & key & Hp & Hr).
    exists ((toks, key) :: tks). split.
    + cbn [map]. rewrite split_paths_cons, Hp, Hsp. reflexivity.
    + constructor; [exact Hr|exact HF].
Qed.

Lemma yaml_paths_are_pointers marked j :
  jwf j -> (forall a, In a (eaddrs marked [] j) -> small a) ->
  epaths marked [] j = map (T1s.render Wire.show_nat) (eaddrs marked [] j) /\
  Forall (node_addr j) (eaddrs marked [] j) /\ ordered (eaddrs marked [] j).
Proof.
  intros Hw Hs. split; [exact (epaths_eaddrs marked j [])|]. split; [|apply eaddrs_ordered; exact Hw].
  pose proof (eaddrs_below marked j Hw []) as Hb. rewrite Forall_forall in Hb |- *. intros a Hin.
  destruct (Hb a Hin) as (suf & Hne & -> & Hat). cbn [app]. split; [exact Hne|]. split; [exact Hat|]. apply Hs. exact Hin.
Qed.

Section S.
Variable E : issue_env.
Variable O : oracles.
Notation H := (ie_hash E).
Notation enc := (ie_enc E).
Hypothesis hash_inj : forall x y, H x = H y -> x = y.
Hypothesis dec_enc : forall ps, o_dec O (enc ps) = DJson (JArr ps).
Hypothesis hash_is : o_hash O SHA256 = H.
Hypothesis jwt_round : forall h p j, ie_sign E h p = Val j -> o_jwt O j = Val (h, p).
Hypothesis sign_total : forall h p, exists j, ie_sign E h p = Val j /\ contains tilde j = false.
Hypothesis enc_no_tilde : forall ps, contains tilde (enc ps) = false.
Hypothesis perm_ok : forall xs, Permutation (ie_perm E xs) xs.

(* in two halves: marking the given nodes succeeds and yields a tree t'; the premises of the second half (decoy digests
   not among its digests, its height within the budget) speak of that tree *)
Theorem encode_json_pointers
    (ckvs : list (string * json)) (addrs : list addr) (max_decoys : option Z) (cnf : option json) (header : json) :
  jwf (JObj ckvs) -> ~ In "_sd_alg" (map fst ckvs) -> ~ In "cnf" (map fst ckvs) ->
  NoDup (ie_salts E) -> addrs <> [] -> Forall (node_addr (JObj ckvs)) addrs -> ordered addrs ->
  List.length addrs <= List.length (ie_salts E) ->
  exists t',
    (exists tks, split_paths (map render addrs) = Some tks /\
       T1j.mark_fold H enc Issuer2.parse_index Issuer2.parse_usize (ie_pos E) (embed (JObj ckvs)) tks (ie_salts E) = Some t') /\
    (NoDup (decoys_used E max_decoys) ->
     (forall g, In g (decoys_used E max_decoys) -> ~ In g (alldigs H enc t')) ->
     (match cnf with Some c => jwf c /\ S (aheight (embed c)) <= 129 | None => True end) ->
     aheight t' <= 129 ->
     exists token payload ds ps,
       issue E (JObj ckvs) (map render addrs) max_decoys cnf header = Val (token, payload, ds) /\
       holder_verify O token = Val (header, match cnf with Some c => JObj (obj_insert "cnf" c ckvs) | None => JObj ckvs end, ps) /\
       Permutation (map snd ps) ds /\
       (* the i-th disclosure is reported under the i-th string the issuer was given *)
       Forall2 (fun d p => In (p, d) ps) ds (map render addrs)).
Proof.
  intros HC Hnalg Hncnf Hnds Hne Hnodes Hord Hlen.
  destruct (split_paths_render (JObj ckvs) HC addrs Hnodes) as (tks & Hsp & HF).
  assert (Hlt : List.length tks <= List.length (ie_salts E)).
  { assert (Hq : List.length tks = List.length addrs) by (clear -HF; induction HF; cbn; congruence). rewrite Hq. exact Hlen. }
  destruct (valid_marking_accepted H enc Issuer2.parse_index Issuer2.parse_usize (ie_pos E) (JObj ckvs) tks addrs (ie_salts E) HC HF Hord Hlt) as [t' Hm].
  exists t'. split; [exists tks; split; assumption|]. intros HndD Hfresh Hcnf Hh.
  assert (Hpne : map render addrs <> []) by (destruct addrs; [congruence|discriminate]).
  destruct (encode_then_holder_verify_paths E O hash_inj dec_enc hash_is jwt_round sign_total enc_no_tilde perm_ok
              ckvs (map render addrs) tks addrs t' max_decoys cnf header HC Hnalg Hncnf Hnds Hpne Hsp HF Hord Hm HndD Hfresh Hcnf Hh)
    as (token & payload & ds & ps & H1 & H2 & H3 & H4).
  exists token, payload, ds, ps. repeat split; try assumption.
  clear -H4. induction H4 as [|d a dr ar Hin _ IH]; cbn [map]; constructor; assumption.
Qed.

(* C15 composed with C14/C01: the (claims, paths) pair parse_yaml returns for a tagged document can be handed to
   the issuer as it is - encode succeeds, the holder gets the claims back and is told the YAML paths. *)
Theorem yaml_then_issue (marked : list string -> bool)
    (ckvs : list (string * json)) (max_decoys : option Z) (cnf : option json) (header : json) :
  jwf (JObj ckvs) -> ~ In "_sd_alg" (map fst ckvs) -> ~ In "cnf" (map fst ckvs) ->
  NoDup (ie_salts E) ->
  (forall a, In a (eaddrs marked [] (JObj ckvs)) -> small a) ->
  forall paths, parse_yaml_tree (ytree marked [] (JObj ckvs)) = Ok (JObj ckvs, paths) ->
  paths <> [] -> List.length paths <= List.length (ie_salts E) ->
  exists t',
    (exists tks, split_paths paths = Some tks /\
       T1j.mark_fold H enc Issuer2.parse_index Issuer2.parse_usize (ie_pos E) (embed (JObj ckvs)) tks (ie_salts E) = Some t') /\
    (NoDup (decoys_used E max_decoys) ->
     (forall g, In g (decoys_used E max_decoys) -> ~ In g (alldigs H enc t')) ->
     (match cnf with Some c => jwf c /\ S (aheight (embed c)) <= 129 | None => True end) ->
     aheight t' <= 129 ->
     exists token payload ds ps,
       issue E (JObj ckvs) paths max_decoys cnf header = Val (token, payload, ds) /\
       holder_verify O token = Val (header, match cnf with Some c => JObj (obj_insert "cnf" c ckvs) | None => JObj ckvs end, ps) /\
       Permutation (map snd ps) ds /\
       Forall2 (fun d p => In (p, d) ps) ds paths).
Proof.
  intros HC Hnalg Hncnf Hnds Hsmall paths Hparse Hne Hlen.
  rewrite (parse_yaml_tagged marked (JObj ckvs) HC) in Hparse.
  assert (Hp : paths = epaths marked [] (JObj ckvs)) by congruence. clear Hparse.
  destruct (yaml_paths_are_pointers marked (JObj ckvs) HC Hsmall) as (Hq & Hnodes & Hord).
  rewrite Hq in Hp. subst paths.
  assert (Hane : eaddrs marked [] (JObj ckvs) <> []) by (intros Hz; rewrite Hz in Hne; apply Hne; reflexivity).
  rewrite map_length in Hlen.
  exact (encode_json_pointers ckvs (eaddrs marked [] (JObj ckvs)) max_decoys cnf header HC Hnalg Hncnf Hnds Hane Hnodes Hord Hlen).
Qed.
End S.
