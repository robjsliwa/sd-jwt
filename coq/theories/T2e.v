(* hdigs and view by element and by member; the invariant of the pass loop (closedR); the hidden nodes whose digest
   shows in a view (Exposed, Visible) and the path that is reported for one (NodePath). *)
From Coq Require Import List String Bool.
Import ListNotations.
Require Import SDJ.Json SDJ.ATree SDJ.T2c SDJ.T2d.
Local Open Scope string_scope.

Section E.
Variable H : string -> string.
Variable enc : list json -> string.
Variable show_nat : nat -> string.
Notation blind := (blind H enc).
Notation view := (view H enc).
Notation dig_item := (dig_item H enc).
Notation dig_mem := (dig_mem H enc).
Notation hdigs := (hdigs H enc).
Notation alldigs := (alldigs H enc).
Notation view_item := (view_item H enc).
Notation view_mem := (view_mem H enc).
Notation vitem R := (ATree.view_item H enc (view R) R).
Notation vmem R := (ATree.view_mem H enc (view R) R).
Notation adigs_item := (adigs_item H enc alldigs).
Notation adigs_mem := (adigs_mem alldigs).
Notation wf := (wf H enc).
Notation mem_ok := (mem_ok H enc).

Definition hdigs_item (it : ikind * atree) : list string :=
  let '(k, s) := it in match k with IHid salt => dig_item salt s :: hdigs s | _ => hdigs s end.
Definition hdigs_mem (m : string * (mkind * atree)) : list string :=
  let '(name, (k, s)) := m in match k with MHid salt => dig_mem salt name s :: hdigs s | _ => hdigs s end.
Lemma hdigs_arr items : hdigs (AArr items) = flat_map hdigs_item items.
Proof. reflexivity. Qed.
Lemma hdigs_obj mems : hdigs (AObj mems) = flat_map hdigs_mem mems.
Proof. reflexivity. Qed.

Lemma hdigs_arr_in items it g : In it items -> In g (hdigs_item it) -> In g (hdigs (AArr items)).
Proof. intros Hin Hg. rewrite hdigs_arr. apply in_flat_map. eauto. Qed.
Lemma hdigs_obj_in mems m g : In m mems -> In g (hdigs_mem m) -> In g (hdigs (AObj mems)).
Proof. intros Hin Hg. rewrite hdigs_obj. apply in_flat_map. eauto. Qed.

Lemma hdigs_sub_item it : incl (hdigs (snd it)) (hdigs_item it).
Proof. destruct it as [[|salt|g] s]; cbn [snd hdigs_item]; [apply incl_refl|apply incl_tl, incl_refl|apply incl_refl]. Qed.
Lemma hdigs_sub_mem m : incl (hdigs (snd (snd m))) (hdigs_mem m).
Proof. destruct m as [name [[|salt|l] s]]; cbn [snd hdigs_mem]; [apply incl_refl|apply incl_tl, incl_refl|apply incl_refl]. Qed.
Lemma NoDup_hdigs_item it : NoDup (hdigs_item it) -> NoDup (hdigs (snd it)).
Proof. destruct it as [[|salt|g] s]; cbn [snd hdigs_item]; intros Hnd; [assumption|inversion Hnd; assumption|assumption]. Qed.
Lemma NoDup_hdigs_mem m : NoDup (hdigs_mem m) -> NoDup (hdigs (snd (snd m))).
Proof. destruct m as [name [[|salt|l] s]]; cbn [snd hdigs_mem]; intros Hnd; [assumption|inversion Hnd; assumption|assumption]. Qed.

(* whether an element or member shows its subtree (Some true), a placeholder or nothing (Some false), or is a
   decoy or the _sd member (None) *)
Definition iopened (R : Rset) (it : ikind * atree) : option bool :=
  let '(k, s) := it in match k with IPlain => Some true | IHid salt => Some (R (dig_item salt s)) | IDecoy _ => None end.
Definition mopened (R : Rset) (m : string * (mkind * atree)) : option bool :=
  let '(name, (k, s)) := m in match k with MPlain => Some true | MHid salt => Some (R (dig_mem salt name s)) | MSd _ => None end.

Lemma iopened_ext R R' it : (forall g, In g (hdigs_item it) -> R g = R' g) -> iopened R it = iopened R' it.
Proof. destruct it as [[|salt|g] s]; cbn; intros Hx; [reflexivity| |reflexivity]. rewrite (Hx _ (or_introl eq_refl)). reflexivity. Qed.
Lemma mopened_ext R R' m : (forall g, In g (hdigs_mem m) -> R g = R' g) -> mopened R m = mopened R' m.
Proof. destruct m as [name [[|salt|l] s]]; cbn; intros Hx; [reflexivity| |reflexivity]. rewrite (Hx _ (or_introl eq_refl)). reflexivity. Qed.

Lemma view_item_ext (v v' : atree -> json) R R' it :
  iopened R it = iopened R' it -> (iopened R it = Some true -> v (snd it) = v' (snd it)) ->
  view_item v R it = view_item v' R' it.
Proof.
  destruct it as [[|salt|g] s]; cbn; intros Ho Hv; [auto| |reflexivity].
  injection Ho as <-. destruct (R _); [auto|reflexivity].
Qed.
Lemma view_mem_ext (v v' : atree -> json) R R' m :
  mopened R m = mopened R' m -> (mopened R m = Some true -> v (snd (snd m)) = v' (snd (snd m))) ->
  view_mem v R m = view_mem v' R' m.
Proof.
  destruct m as [name [[|salt|l] s]]; cbn; intros Ho Hv; [rewrite Hv; reflexivity| |reflexivity].
  injection Ho as <-. destruct (R _); [rewrite Hv; reflexivity|reflexivity].
Qed.

Lemma view_ext R R' : forall t, (forall g, In g (hdigs t) -> R g = R' g) -> view R t = view R' t.
Proof.
  induction t as [j | items IH | mems IH] using atree_ind_in; intros Hx; [reflexivity| |].
  - rewrite !view_arr. f_equal. apply map_ext_in. intros it Hin.
    assert (Hit : forall g, In g (hdigs_item it) -> R g = R' g) by (intros g Hg; apply Hx, (hdigs_arr_in _ _ _ Hin Hg)).
    apply view_item_ext; [apply iopened_ext, Hit|]. intros _. apply IH; [assumption|]. intros g Hg. apply Hit, hdigs_sub_item, Hg.
  - rewrite !view_obj. f_equal. apply flat_map_ext_in'. intros m Hin.
    assert (Hm : forall g, In g (hdigs_mem m) -> R g = R' g) by (intros g Hg; apply Hx, (hdigs_obj_in _ _ _ Hin Hg)).
    apply view_mem_ext; [apply mopened_ext, Hm|]. intros _. apply IH; [assumption|]. intros g Hg. apply Hm, hdigs_sub_mem, Hg.
Qed.

Lemma view_blind R t : (forall g, In g (hdigs t) -> R g = false) -> view R t = blind t.
Proof. intros Hx. rewrite <- view_R0_blind. apply view_ext. intros g Hg. rewrite Hx by assumption. reflexivity. Qed.

Lemma vitem_ext R R' it : (forall g, In g (hdigs_item it) -> R g = R' g) -> vitem R it = vitem R' it.
Proof.
  intros Hx. apply view_item_ext; [apply iopened_ext, Hx|]. intros _. apply view_ext. intros g Hg. apply Hx, hdigs_sub_item, Hg.
Qed.
Lemma vmem_ext R R' m : (forall g, In g (hdigs_mem m) -> R g = R' g) -> vmem R m = vmem R' m.
Proof.
  intros Hx. apply view_mem_ext; [apply mopened_ext, Hx|]. intros _. apply view_ext. intros g Hg. apply Hx, hdigs_sub_mem, Hg.
Qed.

Lemma Radd_other R g g' : g' <> g -> Radd R g g' = R g'.
Proof. intros Hn. unfold Radd. destruct (String.eqb_spec g' g); [contradiction|reflexivity]. Qed.
Lemma Radd_same R g : Radd R g g = true.
Proof. unfold Radd. rewrite String.eqb_refl. reflexivity. Qed.
Lemma Radd_mono R g g' : R g' = true -> Radd R g g' = true.
Proof. unfold Radd. intros ->. apply orb_true_r. Qed.
Lemma Radd_true R g x : Radd R g x = true <-> x = g \/ R x = true.
Proof. unfold Radd. rewrite orb_true_iff, String.eqb_eq. reflexivity. Qed.

(* the loop invariant: no digest below an unopened node is in R *)
Definition closed_sub (closedR : atree -> Prop) (R : Rset) (opened : option bool) (s : atree) : Prop :=
  match opened with
  | None => True
  | Some true => closedR s
  | Some false => forall g, In g (hdigs s) -> R g = false end.

Fixpoint closedR (R : Rset) (t : atree) : Prop :=
  match t with
  | ALeaf _ => True
  | AArr items => fold_right (fun it acc => (let '(k, s) := it in
       match (match k with IPlain => Some true | IHid salt => Some (R (dig_item salt s)) | IDecoy _ => None end) with
       | None => True | Some true => closedR R s | Some false => forall g, In g (hdigs s) -> R g = false end) /\ acc) True items
  | AObj mems => fold_right (fun m acc => (let '(name, (k, s)) := m in
       match (match k with MPlain => Some true | MHid salt => Some (R (dig_mem salt name s)) | MSd _ => None end) with
       | None => True | Some true => closedR R s | Some false => forall g, In g (hdigs s) -> R g = false end) /\ acc) True mems
  end.

Definition iclosed (R : Rset) (it : ikind * atree) : Prop := closed_sub (closedR R) R (iopened R it) (snd it).
Definition mclosed (R : Rset) (m : string * (mkind * atree)) : Prop := closed_sub (closedR R) R (mopened R m) (snd (snd m)).

Lemma closedR_arr R items : closedR R (AArr items) <-> Forall (iclosed R) items.
Proof.
  cbn. induction items as [|[k s] r IH]; cbn; [split; constructor|].
  rewrite IH, Forall_cons_iff. unfold iclosed. destruct k; reflexivity.
Qed.
Lemma closedR_obj R mems : closedR R (AObj mems) <-> Forall (mclosed R) mems.
Proof.
  cbn. induction mems as [|[name [k s]] r IH]; cbn; [split; constructor|].
  rewrite IH, Forall_cons_iff. unfold mclosed. destruct k; reflexivity.
Qed.

Lemma closedR_arr_in R items it : closedR R (AArr items) -> In it items -> iclosed R it.
Proof. intros Hc. apply closedR_arr in Hc. rewrite Forall_forall in Hc. apply Hc. Qed.
Lemma closedR_obj_in R mems m : closedR R (AObj mems) -> In m mems -> mclosed R m.
Proof. intros Hc. apply closedR_obj in Hc. rewrite Forall_forall in Hc. apply Hc. Qed.

Lemma vitem_opened R it : iopened R it = Some true -> vitem R it = view R (snd it).
Proof. destruct it as [[|salt|g] s]; cbn; [reflexivity|intros [= ->]; reflexivity|discriminate]. Qed.
Lemma vmem_opened R m : mopened R m = Some true -> vmem R m = [(fst m, view R (snd (snd m)))].
Proof. destruct m as [name [[|salt|l] s]]; cbn; [reflexivity|intros [= ->]; reflexivity|discriminate]. Qed.
Lemma iopened_Radd R g it : iopened R it = Some true -> iopened (Radd R g) it = Some true.
Proof. destruct it as [[|salt|g'] s]; cbn; [reflexivity|intros [= Ho]; rewrite Radd_mono by assumption; reflexivity|discriminate]. Qed.
Lemma mopened_Radd R g m : mopened R m = Some true -> mopened (Radd R g) m = Some true.
Proof. destruct m as [name [[|salt|l] s]]; cbn; [reflexivity|intros [= Ho]; rewrite Radd_mono by assumption; reflexivity|discriminate]. Qed.

(* g is the digest of a hidden node of t, with name k (None for an array element) and blinded value v, that is not opened
   in R while every hidden node above it is. Then its placeholder, or its entry in _sd, shows in view R t, and
   restore1 puts its disclosure there (T2g.restore1_exposed). *)
Inductive Exposed (R : Rset) (g : string) (k : option string) (v : json) : atree -> Prop :=
| ex_item_here items salt s :
    In (IHid salt, s) items -> g = dig_item salt s -> R g = false -> k = None -> v = blind s ->
    Exposed R g k v (AArr items)
| ex_item_in items ik s :
    In (ik, s) items -> iopened R (ik, s) = Some true -> Exposed R g k v s -> Exposed R g k v (AArr items)
| ex_mem_here mems name salt s :
    In (name, (MHid salt, s)) mems -> g = dig_mem salt name s -> R g = false -> k = Some name -> v = blind s ->
    Exposed R g k v (AObj mems)
| ex_mem_in mems name mk s :
    In (name, (mk, s)) mems -> mopened R (name, (mk, s)) = Some true -> Exposed R g k v s -> Exposed R g k v (AObj mems).

(* Exposed without `R g = false` for a member: g shows in view R t. An array element shows its digest only until it is
   opened (then its content replaces the placeholder); a member's digest stays listed in _sd. *)
Inductive Visible (R : Rset) (g : string) (k : option string) (v : json) : atree -> Prop :=
| vi_item_here items salt s :
    In (IHid salt, s) items -> g = dig_item salt s -> R g = false -> k = None -> v = blind s ->
    Visible R g k v (AArr items)
| vi_item_in items ik s :
    In (ik, s) items -> iopened R (ik, s) = Some true -> Visible R g k v s -> Visible R g k v (AArr items)
| vi_mem_here mems name salt s :
    In (name, (MHid salt, s)) mems -> g = dig_mem salt name s -> k = Some name -> v = blind s ->
    Visible R g k v (AObj mems)
| vi_mem_in mems name mk s :
    In (name, (mk, s)) mems -> mopened R (name, (mk, s)) = Some true -> Visible R g k v s -> Visible R g k v (AObj mems).

Lemma Visible_Exposed R g k v t : Visible R g k v t -> R g = false -> Exposed R g k v t.
Proof. intros Hv HR. induction Hv; [eapply ex_item_here|eapply ex_item_in|eapply ex_mem_here|eapply ex_mem_in]; eauto. Qed.

(* where the hidden node with digest g sits, as the path string the restore procedure reports for it *)
Inductive NodePath (g : string) : atree -> string -> Prop :=
| np_item_here items pre post salt s :
    items = (pre ++ (IHid salt, s) :: post)%list -> g = dig_item salt s ->
    NodePath g (AArr items) ("/" ++ esc_tok (show_nat (List.length pre)))
| np_item_in items pre post ik s suffix :
    items = (pre ++ (ik, s) :: post)%list -> NodePath g s suffix ->
    NodePath g (AArr items) ("/" ++ esc_tok (show_nat (List.length pre)) ++ suffix)
| np_mem_here mems name salt s :
    In (name, (MHid salt, s)) mems -> g = dig_mem salt name s -> NodePath g (AObj mems) ("/" ++ esc_tok name)
| np_mem_in mems name mk s suffix :
    In (name, (mk, s)) mems -> NodePath g s suffix -> NodePath g (AObj mems) ("/" ++ esc_tok name ++ suffix).

Lemma Exposed_R_false R g k v t : Exposed R g k v t -> R g = false.
Proof. induction 1; auto. Qed.

Lemma sd_of_alldigs mems g : In g (sd_of mems) -> In g (alldigs (AObj mems)).
Proof.
  unfold sd_of. rewrite alldigs_obj. intros Hin. apply in_flat_map in Hin as [[name [mk s]] [Hm Hg]].
  apply in_flat_map. exists (name, (mk, s)). split; [assumption|]. destruct mk; cbn in *; tauto.
Qed.

Lemma hdigs_alldigs_item it :
  item_ok it -> incl (hdigs (snd it)) (alldigs (snd it)) -> incl (hdigs_item it) (adigs_item it).
Proof.
  destruct it as [[|salt|g'] s]; unfold item_ok; cbn [fst snd hdigs_item T2c.adigs_item]; intros Hok Hi.
  - assumption.
  - apply incl_cons; [left; reflexivity|apply incl_tl, Hi].
  - subst s. intros g [].
Qed.

(* a hidden member's own digest is listed by the object's _sd member, not by the member *)
Lemma hdigs_alldigs_mem mems m g :
  mem_ok mems m -> incl (hdigs (snd (snd m))) (alldigs (snd (snd m))) ->
  In g (hdigs_mem m) -> In g (sd_of mems) \/ In g (adigs_mem m).
Proof.
  destruct m as [name [[|salt|l] s]]; cbn [T2c.mem_ok fst snd hdigs_mem T2c.adigs_mem]; intros Hok Hi Hg.
  - right. apply Hi, Hg.
  - destruct Hg as [<-|Hg]; [left; apply Hok|right; apply Hi, Hg].
  - destruct Hok as (_ & _ & ->). destruct Hg.
Qed.

Lemma hdigs_alldigs : forall t, wf t -> incl (hdigs t) (alldigs t).
Proof.
  apply wf_ind_in.
  - intros j _ g [].
  - intros items Hw IH g Hg. rewrite hdigs_arr in Hg. apply in_flat_map in Hg as [it [Hin Hg]].
    rewrite alldigs_arr. apply in_flat_map. exists it. split; [assumption|].
    exact (hdigs_alldigs_item it (proj2 (wf_arr_in _ _ _ _ Hw Hin)) (IH it Hin) g Hg).
  - intros mems Hw IH g Hg. rewrite hdigs_obj in Hg. apply in_flat_map in Hg as [m [Hin Hg]].
    destruct (hdigs_alldigs_mem mems m g (proj2 (wf_obj_in _ _ _ _ Hw Hin)) (IH m Hin) Hg) as [Hsd|Hm].
    + apply sd_of_alldigs, Hsd.
    + rewrite alldigs_obj. apply in_flat_map. eauto.
Qed.

Lemma hdigs_item_adigs it : wf (snd it) -> item_ok it -> incl (hdigs_item it) (adigs_item it).
Proof. intros Hw Hok. apply hdigs_alldigs_item, hdigs_alldigs; assumption. Qed.
End E.
