(* What restore1 looks at in a payload: its height, whether a digest occurs in it (as a placeholder or in an _sd), and
   whether its SD bookkeeping is well formed (sdwf). A disclosure whose digest does not occur leaves a well-formed
   payload as it is (restore1_no_occ). *)
From Coq Require Import List String Bool Arith Lia.
Import ListNotations.
Require Import SDJ.Json SDJ.Model2.
Local Open Scope string_scope.

Fixpoint height (j : json) : nat :=
  match j with
  | JArr xs => S (fold_right (fun x m => Nat.max (height x) m) 0 xs)
  | JObj kvs => S (fold_right (fun kv m => Nat.max (let '(_, v) := kv in height v) m) 0 kvs)
  | _ => 1 end.

Definition occ_mem (occurs : json -> bool) (g : string) (kv : string * json) : bool :=
  let '(k, v) := kv in
  orb (if String.eqb k "_sd" then match v with JArr ds => existsb (fun x => json_eqb_str x g) ds | _ => false end
       else if String.eqb k "..." then json_eqb_str v g else false) (occurs v).

Fixpoint occurs (g : string) (j : json) : bool :=
  match j with
  | JArr xs => existsb (occurs g) xs
  | JObj kvs => existsb (fun kv => let '(k, v) := kv in
       orb (if String.eqb k "_sd" then match v with JArr ds => existsb (fun x => json_eqb_str x g) ds | _ => false end
            else if String.eqb k "..." then json_eqb_str v g else false) (occurs g v)) kvs
  | _ => false end.
Lemma occurs_obj g kvs : occurs g (JObj kvs) = existsb (occ_mem (occurs g) g) kvs.
Proof. reflexivity. Qed.

Lemma occ_mem_other (occ : json -> bool) g k v : k <> "_sd" -> k <> "..." -> occ_mem occ g (k, v) = occ v.
Proof. intros H1 H2. apply String.eqb_neq in H1, H2. cbn [occ_mem]. rewrite H1, H2. reflexivity. Qed.

Definition wf_mem (sdwf : json -> bool) (kv : string * json) : bool :=
  let '(k, v) := kv in andb (if String.eqb k "_sd" then match v with JArr _ => true | _ => false end else true) (sdwf v).
Fixpoint sdwf (j : json) : bool :=
  match j with
  | JArr xs => forallb sdwf xs
  | JObj kvs => andb (match obj_get "..." kvs with Some _ => Nat.eqb (List.length kvs) 1 | None => true end)
               (forallb (fun kv => let '(k, v) := kv in
                   andb (if String.eqb k "_sd" then match v with JArr _ => true | _ => false end else true) (sdwf v)) kvs)
  | _ => true end.
Lemma sdwf_obj kvs : sdwf (JObj kvs) =
  andb (match obj_get "..." kvs with Some _ => Nat.eqb (List.length kvs) 1 | None => true end) (forallb (wf_mem sdwf) kvs).
Proof. reflexivity. Qed.

Definition hmax {A} (f : A -> nat) (l : list A) : nat := fold_right (fun x m => Nat.max (f x) m) 0 l.
Lemma hmax_in {A} (f : A -> nat) l x : In x l -> f x <= hmax f l.
Proof. induction l as [|y r IH]; [intros []|]. intros [->|Hx]; cbn; [lia|]. specialize (IH Hx). unfold hmax in *. lia. Qed.
Lemma hmax_app {A} (f : A -> nat) l1 l2 : hmax f (l1 ++ l2) = Nat.max (hmax f l1) (hmax f l2).
Proof. induction l1 as [|x r IH]; cbn; [reflexivity|]. unfold hmax in *. rewrite IH. lia. Qed.
Lemma hmax_bound {A} (f : A -> nat) l n : (forall x, In x l -> f x <= n) -> hmax f l <= n.
Proof.
  induction l as [|x r IH]; cbn; intros Hx; [lia|]. specialize (Hx x (or_introl eq_refl)) as H1.
  assert (hmax f r <= n) by (apply IH; intros; apply Hx; right; assumption). unfold hmax in *. lia.
Qed.
Lemma hmax_le {A} (f g : A -> nat) l : (forall x, In x l -> f x <= g x) -> hmax f l <= hmax g l.
Proof. intros Hfg. apply hmax_bound. intros x Hx. eapply Nat.le_trans; [apply Hfg, Hx|apply hmax_in, Hx]. Qed.
Lemma hmax_flat_map {A B} (f : B -> nat) (F : A -> list B) (g : A -> nat) l :
  (forall x y, In x l -> In y (F x) -> f y <= g x) -> hmax f (flat_map F l) <= hmax g l.
Proof.
  intros Hfg. apply hmax_bound. intros y Hy. apply in_flat_map in Hy as [x [Hx Hy]].
  eapply Nat.le_trans; [exact (Hfg x y Hx Hy)|apply hmax_in, Hx].
Qed.
Lemma hmax_map {A B} (f : B -> nat) (h : A -> B) l : hmax f (map h l) = hmax (fun x => f (h x)) l.
Proof. induction l as [|x r IH]; cbn; [reflexivity|]. unfold hmax in IH. rewrite IH. reflexivity. Qed.

Lemma height_arr xs : height (JArr xs) = S (hmax height xs).
Proof. reflexivity. Qed.
Lemma height_obj kvs : height (JObj kvs) = S (hmax (fun kv : string * json => let '(_, v) := kv in height v) kvs).
Proof. reflexivity. Qed.

Lemma existsb_false {A} (p : A -> bool) l x : existsb p l = false -> In x l -> p x = false.
Proof.
  intros He Hx. apply not_true_is_false. intros Hp.
  rewrite (proj2 (existsb_exists p l)) in He by eauto. discriminate.
Qed.

Lemma obj_get_in k kvs v : obj_get k kvs = Some v -> In (k, v) kvs.
Proof.
  induction kvs as [|[k' v'] r IH]; cbn; [discriminate|].
  destruct (String.eqb_spec k k'); intros Hq.
  - injection Hq as <-. subst. left; reflexivity.
  - right; auto.
Qed.

Lemma walk_walki {A D} (f : A -> res (A * list (dpath_ D) * bool)) (l : list A) i : walk f l = walki (fun _ => f) i l.
Proof. revert i. induction l as [|x r IH]; intros i; cbn; [reflexivity|]. rewrite (IH (S i)). reflexivity. Qed.

Lemma walki_id {A D} (f : nat -> A -> res (A * list (dpath_ D) * bool)) (l : list A) : forall i,
  (forall j x, In x l -> f j x = Ok (x, [], false)) -> walki f i l = Ok (l, [], false).
Proof.
  induction l as [|x r IH]; intros i Hf; cbn; [reflexivity|].
  rewrite Hf by (left; reflexivity). cbn.
  rewrite IH by (intros; apply Hf; right; assumption). reflexivity.
Qed.

Lemma walki_app {A D} (f : nat -> A -> res (A * list (dpath_ D) * bool)) (l1 l2 : list A) : forall i,
  walki f i (l1 ++ l2) =
  do (a, pa, ba) <- walki f i l1; do (b, pb, bb) <- walki f (i + List.length l1) l2;
  Ok ((a ++ b)%list, (pa ++ pb)%list, orb ba bb).
Proof.
  induction l1 as [|x r IH]; intros i; cbn [app walki List.length].
  - rewrite Nat.add_0_r. cbn. destruct (walki f i l2) as [[[b pb] bb]|]; reflexivity.
  - destruct (f i x) as [[[x' ps] bx]|]; cbn [bind]; [|reflexivity].
    rewrite IH, Nat.add_succ_r. destruct (walki f (S i) r) as [[[a pa] ba]|]; cbn [bind Nat.add]; [|reflexivity].
    destruct (walki f (S (i + List.length r)) l2) as [[[b pb] bb]|]; cbn [bind]; [|reflexivity].
    rewrite app_assoc, orb_assoc. reflexivity.
Qed.

Lemma walki_focus {A D} (f : nat -> A -> res (A * list (dpath_ D) * bool)) l1 x l2 i :
  (forall j y, In y (l1 ++ l2) -> f j y = Ok (y, [], false)) ->
  walki f i (l1 ++ x :: l2) = do (x', ps, b) <- f (i + List.length l1) x; Ok ((l1 ++ x' :: l2)%list, ps, b).
Proof.
  intros Hf. rewrite walki_app, walki_id by (intros; apply Hf, in_or_app; left; assumption).
  cbn [bind walki]. destruct (f (i + List.length l1) x) as [[[x' ps] b]|]; [|reflexivity]. cbn [bind].
  rewrite walki_id by (intros; apply Hf, in_or_app; right; assumption).
  cbn. rewrite app_nil_r, orb_false_r. reflexivity.
Qed.

Lemma walk_id {A D} (f : A -> res (A * list (dpath_ D) * bool)) (l : list A) :
  (forall x, In x l -> f x = Ok (x, [], false)) -> walk f l = Ok (l, [], false).
Proof. intros Hf. rewrite (walk_walki f l 0). apply walki_id. intros _. exact Hf. Qed.

Lemma walk_focus {A D} (f : A -> res (A * list (dpath_ D) * bool)) l1 x l2 :
  (forall y, In y (l1 ++ l2) -> f y = Ok (y, [], false)) ->
  walk f (l1 ++ x :: l2) = do (x', ps, b) <- f x; Ok ((l1 ++ x' :: l2)%list, ps, b).
Proof. intros Hf. rewrite (walk_walki f _ 0). apply walki_focus. intros _. exact Hf. Qed.

Section R.
Variable show_nat : nat -> string.
Notation restore1 := (restore1 show_nat).

Lemma arr_body_no_occ rec d path i x :
  sdwf x = true -> occurs (d_digest d) x = false ->
  (forall p, rec p x = Ok (x, [], false)) ->
  arr_body show_nat rec d path i x = Ok (x, [], false).
Proof.
  intros Hw Ho Hrec. unfold arr_body, placeholder_of.
  destruct x as [| | | | ys | kvs]; cbn [bind]; try (rewrite Hrec; reflexivity).
  rewrite sdwf_obj in Hw. apply andb_true_iff in Hw as [Hw _].
  destruct (obj_get "..." kvs) as [v|] eqn:Eg; [|cbn [bind]; rewrite Hrec; reflexivity].
  (* a placeholder: its digest occurs, so it is not the disclosure's *)
  rewrite occurs_obj in Ho. apply obj_get_in in Eg.
  pose proof (existsb_false _ _ _ Ho Eg) as Hv. cbn in Hv. apply orb_false_iff in Hv as [Hv _].
  rewrite Hw. cbn [bind]. rewrite Hv. cbn [bind]. rewrite Hrec. reflexivity.
Qed.

Lemma sd_step_no_occ d path kvs :
  sdwf (JObj kvs) = true -> occurs (d_digest d) (JObj kvs) = false -> sd_step d path kvs = Ok (kvs, [], false).
Proof.
  intros Hwf Hocc. rewrite sdwf_obj in Hwf. apply andb_true_iff in Hwf as [_ Hw]. rewrite occurs_obj in Hocc.
  unfold sd_step. destruct (obj_get "_sd" kvs) as [sd|] eqn:Esd; [|reflexivity].
  apply obj_get_in in Esd.
  rewrite forallb_forall in Hw. specialize (Hw _ Esd). cbn in Hw.
  pose proof (existsb_false _ _ _ Hocc Esd) as Hsd. cbn in Hsd. apply orb_false_iff in Hsd as [Hsd _].
  destruct sd; try discriminate. cbn. rewrite Hsd. reflexivity.
Qed.

Lemma restore1_no_occ d : forall n path j,
  sdwf j = true -> occurs (d_digest d) j = false -> height j <= n ->
  restore1 n d path j = Ok (j, [], false).
Proof.
  induction n as [|n IH]; intros path j Hwf Hocc Hd.
  { destruct j; cbn in Hd; lia. }
  destruct j as [| b | l | s | xs | kvs]; try reflexivity.
  - cbn [Model2.restore1]. rewrite walki_id; [reflexivity|].
    intros i x Hx.
    assert (Hw : sdwf x = true) by (cbn [sdwf] in Hwf; rewrite forallb_forall in Hwf; auto).
    assert (Ho : occurs (d_digest d) x = false) by (exact (existsb_false _ _ _ Hocc Hx)).
    assert (Hdx : height x <= n) by (rewrite height_arr in Hd; pose proof (hmax_in height _ _ Hx); lia).
    apply arr_body_no_occ; auto.
  - cbn [Model2.restore1]. rewrite sd_step_no_occ by assumption. cbn [bind].
    rewrite sdwf_obj in Hwf. apply andb_true_iff in Hwf as [_ Hw]. rewrite occurs_obj in Hocc.
    rewrite walk_id; [reflexivity|].
    intros [k v] Hin. unfold obj_body. rewrite IH; [reflexivity| | | ].
    + rewrite forallb_forall in Hw. specialize (Hw _ Hin). apply andb_true_iff in Hw. apply Hw.
    + pose proof (existsb_false _ _ _ Hocc Hin) as Ho. apply orb_false_iff in Ho. apply Ho.
    + rewrite height_obj in Hd. pose proof (hmax_in (fun kv : string * json => let '(_, v) := kv in height v) _ _ Hin) as Hm.
      cbn beta iota in Hm. lia.
Qed.
End R.
