(* C06, issuer side: which strings can occur in the signed payload. *)
From Coq Require Import List String.
Import ListNotations.
Require Import SDJ.Json SDJ.ATree SDJ.T2c SDJ.T2d.
Local Open Scope string_scope.

Fixpoint atoms (j : json) : list string :=
  match j with
  | JStr s => [s]
  | JArr xs => flat_map atoms xs
  | JObj kvs => flat_map (fun kv => let '(k, v) := kv in k :: atoms v) kvs
  | _ => [] end.

Section A.
Variable H : string -> string.
Variable enc : list json -> string.
Notation blind := (blind H enc).
Notation alldigs := (alldigs H enc).
Notation wf := (wf H enc).

Fixpoint vatoms (t : atree) : list string :=
  match t with
  | ALeaf j => atoms j
  | AArr items => flat_map (fun it => let '(k, s) := it in match k with IPlain => vatoms s | _ => [] end) items
  | AObj mems => flat_map (fun m => let '(name, (k, s)) := m in match k with MPlain => name :: vatoms s | _ => [] end) mems
  end.

Lemma atoms_strs l : atoms (JArr (map JStr l)) = l.
Proof. cbn [atoms]. induction l as [|x r IH]; [reflexivity|]. cbn. rewrite IH. reflexivity. Qed.

(* every string of the blinded payload is a reserved name, an embedded digest, or a name / string value that
   lies outside every hidden node: no name and no value of a hidden claim - nor anything inside it - occurs *)
Theorem blind_atoms : forall t, wf t -> forall a, In a (atoms (blind t)) ->
  a = "_sd" \/ a = "..." \/ In a (alldigs t) \/ In a (vatoms t).
Proof.
  apply (wf_ind_in H enc (fun t => forall a, In a (atoms (blind t)) -> a = "_sd" \/ a = "..." \/ In a (alldigs t) \/ In a (vatoms t))).
  - auto.
  - intros items _ IH a Ha. cbn [ATree.blind atoms] in Ha. rewrite flat_map_map' in Ha. apply in_flat_map in Ha as [[k s] [Hin Ha]].
    assert (Hd : forall x, In x (adigs_item H enc alldigs (k, s)) -> In x (alldigs (AArr items))).
    { intros x Hx. rewrite alldigs_arr. apply in_flat_map. eauto. }
    destruct k as [|salt|g]; [|destruct Ha as [<-|[<-|[]]]; [auto|right; right; left; apply Hd; left; reflexivity]..].
    destruct (IH _ Hin a Ha) as [?|[?|[Hd'|Hv]]]; auto.
    do 3 right. cbn [vatoms]. apply in_flat_map. exists (IPlain, s). auto.
  - intros mems Hw IH a Ha.
    cbn [ATree.blind atoms] in Ha. rewrite flat_map_flat_map in Ha. apply in_flat_map in Ha as [[name [k s]] [Hin Ha]].
    assert (Hd : forall x, In x (adigs_mem alldigs (name, (k, s))) -> In x (alldigs (AObj mems))).
    { intros x Hx. rewrite alldigs_obj. apply in_flat_map. eauto. }
    assert (Hv : forall x, k = MPlain -> name = x \/ In x (vatoms s) -> In x (vatoms (AObj mems))).
    { intros x -> Hx. cbn [vatoms]. apply in_flat_map. exists (name, (MPlain, s)). auto. }
    destruct k as [|salt|l]; cbn in Ha; [|destruct Ha|]; rewrite app_nil_r in Ha; destruct Ha as [<-|Ha].
    + auto 6.
    + destruct (IH _ Hin a Ha) as [?|[?|[?|?]]]; auto 6.
    + left. apply (wf_obj_in H enc _ _ Hw Hin).
    + change (In a (atoms (JArr (map JStr l)))) in Ha. rewrite atoms_strs in Ha. auto.
Qed.
End A.
