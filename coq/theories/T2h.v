(* strip of a view is the projection proj of the tree. *)
From Coq Require Import List String.
Import ListNotations.
Require Import SDJ.Json SDJ.Model2 SDJ.ATree SDJ.T2c SDJ.T2d SDJ.Restore2.
Local Open Scope string_scope.

Section Hh.
Variable H : string -> string.
Variable enc : list json -> string.
Notation view := (view H enc).
Notation dig_item := (dig_item H enc).
Notation dig_mem := (dig_mem H enc).
Notation wf := (wf H enc).

(* the property's projection: opened hidden nodes shown, everything else about SD removed *)
Fixpoint proj (R : Rset) (t : atree) : json :=
  match t with
  | ALeaf j => j
  | AArr items => JArr (flat_map (fun it => let '(k, s) := it in
        match k with
        | IPlain => [proj R s]
        | IHid salt => if R (dig_item salt s) then [proj R s] else []
        | IDecoy _ => [] end) items)
  | AObj mems => JObj (flat_map (fun m => let '(name, (k, s)) := m in
        match k with
        | MPlain => [(name, proj R s)]
        | MHid salt => if R (dig_mem salt name s) then [(name, proj R s)] else []
        | MSd _ => [] end) mems)
  end.

Lemma is_placeholder_view R s : wf s -> is_placeholder (view R s) = false.
Proof.
  intros Hw. pose proof (placeholder_of_view H enc R s Hw) as Hp. unfold placeholder_of in Hp. unfold is_placeholder.
  destruct (view R s); try reflexivity. destruct (obj_get "..." kvs); [|reflexivity].
  destruct (Nat.eqb (List.length kvs) 1); discriminate.
Qed.

Theorem strip_view R : forall t, wf t -> strip (view R t) = proj R t.
Proof.
  apply wf_ind_in.
  - intros j Hj. destruct j; cbn in *; tauto || reflexivity.
  - intros items Hw IH. rewrite view_arr. cbn [strip proj]. f_equal. rewrite flat_map_map'. apply flat_map_ext_in'.
    intros [k s] Hin. specialize (IH _ Hin). destruct (wf_arr_in _ _ _ _ Hw Hin) as [Hws _]. cbn [snd] in IH, Hws.
    destruct k as [|salt|g]; cbn [ATree.view_item]; [|destruct (R _); [|reflexivity]|reflexivity].
    all: rewrite is_placeholder_view, IH by assumption; reflexivity.
  - intros mems Hw IH. rewrite view_obj. cbn [strip proj]. f_equal. rewrite flat_map_flat_map. apply flat_map_ext_in'.
    intros [name [k s]] Hin. specialize (IH _ Hin). destruct (wf_obj_in _ _ _ _ Hw Hin) as [_ Hok]. cbn in IH, Hok.
    (* only the _sd member is called _sd *)
    destruct k as [|salt|l]; cbn [ATree.view_mem]; [|destruct (R _); [|reflexivity]|destruct Hok as (_ & -> & _); reflexivity].
    all: cbn [flat_map app]; destruct (String.eqb_spec name "_sd"); [tauto|]; rewrite IH; reflexivity.
Qed.
End Hh.
