(* C09: a KB-JWT is accepted only together with exactly the issuer JWT and the disclosure list it was built
   for. *)
From Coq Require Import List String Lia.
Import ListNotations.
Require Import SDJ.Json SDJ.Wire SDJ.Out SDJ.Split SDJ.Verify SDJ.C05Proofs.
Local Open Scope string_scope.

Section C09.
Variable O : oracles.

(* the verifier accepted token' carrying the KB-JWT kb; kb's sd_hash was computed (by anyone) over the
   presentation prefix serialise jwt ds "" under the token's algorithm; the hash is injective:
   then token' consists of exactly that issuer JWT and that disclosure list *)
Theorem kb_commits token' kbpol hdr claims jwt' ds' kb jwt ds alg0 :
  (forall x y, o_hash O alg0 x = o_hash O alg0 y -> x = y) ->
  verifier_verify_raw O token' kbpol = Val (hdr, claims, ds') ->
  sd_jwt_parts token' = (jwt', ds', Some kb) ->
  token' = serialise jwt' ds' kb ->
  Forall (fun x => contains tilde x = false) (jwt' :: ds') -> contains tilde kb = false ->
  Forall (fun x => contains tilde x = false) (jwt :: ds) ->
  (forall h' kc, verify_kb O kb (jget "cnf" claims) = Val (h', kc) -> jget "sd_hash" kc = JStr (o_hash O alg0 (serialise jwt ds ""))) ->
  (forall alg, declared_halg claims = Some alg -> alg = alg0) ->
  jwt' = jwt /\ ds' = ds.
Proof.
  intros Hinj Hv Hp Htok Ht' Hkb Ht Hsd Halg.
  destruct (accepted_commits O token' kbpol hdr claims ds' jwt' kb Hv Hp) as (h' & kc & alg & Hvk & Hh & Hs).
  rewrite (Hsd h' kc Hvk) in Hs. rewrite (Halg alg Hh) in Hs. injection Hs as Hs. apply Hinj in Hs.
  rewrite Htok, drop_kb_serialise in Hs by assumption.
  destruct (serialise_inj jwt ds jwt' ds' Ht Ht' Hs) as [-> ->]. auto.
Qed.
End C09.
