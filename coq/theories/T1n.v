(* Key-sorted association lists under obj_insert (BTreeMap insert) *)
From Coq Require Import List String Bool Sorting.Sorted Permutation.
Import ListNotations.
Require Import SDJ.Json SDJ.Model2 SDJ.Restore2 SDJ.T2b SDJ.T2n.
Local Open Scope string_scope.

Lemma obj_get_insert_same k v : forall l : list (string * json), obj_get k (obj_insert k v l) = Some v.
Proof.
  induction l as [|[k' v'] r IH]; cbn [obj_insert obj_get]; [rewrite String.eqb_refl; reflexivity|].
  destruct (String.compare k k') eqn:Ec; cbn [obj_get]; try (rewrite String.eqb_refl; reflexivity).
  destruct (String.eqb_spec k k') as [->|]; [rewrite compare_refl_eq in Ec; discriminate|]. exact IH.
Qed.

Lemma obj_get_insert_other k k' v : k <> k' -> forall l : list (string * json), obj_get k (obj_insert k' v l) = obj_get k l.
Proof.
  intros Hne. induction l as [|[k1 v1] r IH]; cbn [obj_insert obj_get].
  - destruct (String.eqb_spec k k'); [contradiction|reflexivity].
  - destruct (String.compare k' k1) eqn:Ec; cbn [obj_get].
    + apply String.compare_eq_iff in Ec. subst k1. destruct (String.eqb_spec k k'); [contradiction|reflexivity].
    + destruct (String.eqb_spec k k'); [contradiction|reflexivity].
    + destruct (String.eqb_spec k k1); [reflexivity|exact IH].
Qed.

Lemma obj_insert_keys k v : forall (l : list (string * json)) y, In y (map fst (obj_insert k v l)) <-> y = k \/ In y (map fst l).
Proof.
  induction l as [|[k1 v1] r IH]; intros y; cbn [obj_insert map fst In]; [intuition congruence|].
  destruct (String.compare k k1) eqn:Ec; cbn [map fst In].
  - apply String.compare_eq_iff in Ec. subst. intuition congruence.
  - intuition congruence.
  - rewrite IH. intuition congruence.
Qed.

Lemma obj_insert_sorted k v : forall l : list (string * json), StronglySorted slt (map fst l) -> StronglySorted slt (map fst (obj_insert k v l)).
Proof.
  induction l as [|[k1 v1] r IH]; intros Hs; cbn [obj_insert]; [cbn; constructor; constructor|].
  cbn [map fst] in Hs. apply StronglySorted_inv in Hs as [Hs Hf].
  destruct (String.compare k k1) eqn:Ec; cbn [map fst].
  - apply String.compare_eq_iff in Ec. subst. constructor; assumption.
  - constructor; [constructor; assumption|]. constructor; [exact Ec|]. eapply Forall_impl; [|exact Hf]. intros a Ha. eapply slt_trans; eauto.
  - constructor; [apply IH; assumption|]. apply Forall_forall. intros y Hy. apply obj_insert_keys in Hy as [->|Hy].
    + unfold slt. rewrite String.compare_antisym, Ec. reflexivity.
    + rewrite Forall_forall in Hf. auto.
Qed.

Lemma obj_insert_comm_lt k1 v1 k2 v2 : slt k1 k2 -> forall l : list (string * json),
  obj_insert k1 v1 (obj_insert k2 v2 l) = obj_insert k2 v2 (obj_insert k1 v1 l).
Proof.
  intros Hlt. pose proof (slt_gt _ _ Hlt) as Hgt. unfold slt in Hlt.
  induction l as [|[k v] r IH]; cbn [obj_insert]; [rewrite Hlt, Hgt; reflexivity|].
  destruct (String.compare k2 k) eqn:E2.
  - apply String.compare_eq_iff in E2. subst k.
    cbn [obj_insert]. rewrite Hlt. cbn [obj_insert]. rewrite Hgt. cbn [obj_insert]. rewrite compare_refl_eq. reflexivity.
  - rewrite (slt_trans _ _ _ Hlt E2 : String.compare k1 k = Lt).
    cbn [obj_insert]. rewrite Hlt, Hgt. cbn [obj_insert]. rewrite E2. reflexivity.
  - (* k < k2: wherever k1 goes relative to k, k2 goes behind both *)
    destruct (String.compare k1 k) eqn:E1; cbn [obj_insert]; rewrite E1.
    + rewrite Hgt. reflexivity.
    + rewrite Hgt. cbn [obj_insert]. rewrite E2. reflexivity.
    + rewrite E2, IH. reflexivity.
Qed.

Lemma obj_insert_comm k1 v1 k2 v2 : k1 <> k2 -> forall l : list (string * json),
  obj_insert k1 v1 (obj_insert k2 v2 l) = obj_insert k2 v2 (obj_insert k1 v1 l).
Proof.
  intros Hne l. destruct (slt_cases k1 k2) as [E|[->|E]].
  - apply obj_insert_comm_lt. exact E.
  - contradiction.
  - symmetry. apply obj_insert_comm_lt. exact E.
Qed.

Lemma filter_absent k : forall l : list (string * json), ~ In k (map fst l) ->
  filter (fun kv => negb (String.eqb (fst kv) k)) l = l.
Proof.
  induction l as [|[k1 v1] r IH]; intros Hni; [reflexivity|]. cbn [filter fst].
  destruct (String.eqb_spec k1 k) as [->|]; [exfalso; apply Hni; left; reflexivity|].
  cbn [negb]. f_equal. apply IH. intros Hin. apply Hni. right. exact Hin.
Qed.

Lemma filter_insert_same k v : forall l : list (string * json), ~ In k (map fst l) ->
  filter (fun kv => negb (String.eqb (fst kv) k)) (obj_insert k v l) = l.
Proof.
  induction l as [|[k1 v1] r IH]; intros Hni; cbn [obj_insert]; [cbn; rewrite String.eqb_refl; reflexivity|].
  destruct (String.compare k k1) eqn:Ec; cbn [filter fst].
  - apply String.compare_eq_iff in Ec. exfalso. apply Hni. left. symmetry. exact Ec.
  - rewrite String.eqb_refl. cbn [negb]. exact (filter_absent k ((k1, v1) :: r) Hni).
  - destruct (String.eqb_spec k1 k) as [->|]; [exfalso; apply Hni; left; reflexivity|].
    cbn [negb]. f_equal. apply IH. intros Hin. apply Hni. right. exact Hin.
Qed.

Lemma strip_filter_top (p : string -> bool) kvs :
  strip (JObj (filter (fun kv => p (fst kv)) kvs)) =
  match strip (JObj kvs) with JObj l => JObj (filter (fun kv => p (fst kv)) l) | x => x end.
Proof.
  cbn [strip]. f_equal. induction kvs as [|[k v] r IH]; [reflexivity|]. cbn [filter fst flat_map].
  destruct (p k) eqn:Ep; cbn [flat_map]; destruct (String.eqb k "_sd"); cbn [app filter fst]; rewrite ?Ep, IH; reflexivity.
Qed.

Lemma perm_strs ys ll : Permutation ys (map JStr ll) -> ys = map JStr (strs_of ys) /\ Permutation (strs_of ys) ll.
Proof.
  intros Hp. split.
  - assert (HF : Forall (fun y => exists s, y = JStr s) ys).
    { eapply Permutation_Forall; [symmetry; exact Hp|]. apply Forall_forall. intros y Hy. apply in_map_iff in Hy as [s [<- _]]. eauto. }
    clear Hp. induction HF as [|y r [s ->] _ IH]; [reflexivity|]. unfold strs_of in *. cbn. f_equal. exact IH.
  - rewrite <- (strs_of_strs ll). unfold strs_of. apply Permutation_flat_map. exact Hp.
Qed.
