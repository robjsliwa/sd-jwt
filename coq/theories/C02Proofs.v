(* C02 end to end on the models: Holder::presentation on a received SD-JWT, any sequence of redact() calls,
   key_binding() when the token is bound to a key, Holder::build, then Verifier::verify on the built
   presentation - the verifier accepts and returns the issuer's header and the projection of the token's tree
   determined by the selected (not withheld) disclosures. *)
From Coq Require Import List String Arith.
Import ListNotations.
Require Import SDJ.Json SDJ.Wire SDJ.Model2 SDJ.Out SDJ.Restore2 SDJ.Split SDJ.SplitM SDJ.SplitMProofs SDJ.ATree
  SDJ.T2c SDJ.T2d SDJ.T2h SDJ.T2m SDJ.T2o SDJ.Verify SDJ.KbProofs SDJ.C05Proofs SDJ.C03Proofs.
Local Open Scope string_scope.

Lemma decode_all_in H dec : forall L ds, decode_all H dec L = Ok ds ->
  forall d, In d ds -> In (d_str d) L /\ from_base64 H dec (d_str d) = Ok d.
Proof.
  induction L as [|s r IH]; cbn [decode_all]; intros ds Hd d Hin; [injection Hd as <-; destruct Hin|].
  destruct (from_base64 H dec s) as [d0|] eqn:Ef; [|discriminate].
  destruct (decode_all H dec r) as [ds'|]; [|discriminate]. injection Hd as <-.
  destruct Hin as [<-|Hin].
  - destruct (from_base64_str H dec s d0 Ef) as [-> _]. split; [left; reflexivity|exact Ef].
  - destruct (IH ds' eq_refl d Hin). split; [right|]; assumption.
Qed.

Lemma Forall_cons_incl {A} (P : A -> Prop) x l l' : incl l' l -> Forall P (x :: l) -> Forall P (x :: l').
Proof. intros Hi HF. inversion HF; subst. constructor; [assumption|]. eapply incl_Forall; eassumption. Qed.

Lemma prefix_is_serialise jwt ds : presentation_prefix jwt ds = serialise jwt ds "".
Proof.
  unfold presentation_prefix, serialise. f_equal. revert jwt.
  induction ds as [|d r IH]; intros acc; [reflexivity|]. cbn [fold_left]. rewrite IH.
  destruct r; cbn [join]; rewrite ?append_assoc_; reflexivity.
Qed.

Lemma serialise_kb jwt sel kb : (presentation_prefix jwt sel ++ kb)%string = serialise jwt sel kb.
Proof. rewrite prefix_is_serialise. unfold serialise. rewrite !append_assoc_. reflexivity. Qed.

Section C02.
Variable O : oracles.
Variable H : string -> string.
Variable enc : list json -> string.
Hypothesis hash_inj : forall x y, H x = H y -> x = y.
Hypothesis dec_enc : forall ps, o_dec O (enc ps) = DJson (JArr ps).
Notation blind := (blind H enc).
Notation hdigs := (hdigs H enc).
Notation alldigs := (alldigs H enc).
Notation proj := (proj H enc).

Variable t : atree.
Hypothesis Hwf : wf H enc t.
Hypothesis Hnd : NoDup (alldigs t).
Hypothesis Hndh : NoDup (hdigs t).
Hypothesis Hheight : aheight t <= 129.

Definition redact_all (h : holder) (rs : list string) : holder := fold_left holder_redact rs h.

Lemma redact_all_eq rs : forall h, redact_all h rs =
  {| h_jwt := h_jwt h; h_redacted := (h_redacted h ++ rs)%list; h_paths := h_paths h; h_kb := h_kb h |}.
Proof.
  unfold redact_all. induction rs as [|r rs IH]; intros h; cbn [fold_left].
  - rewrite app_nil_r. destruct h; reflexivity.
  - rewrite IH. cbn [holder_redact h_jwt h_paths h_kb h_redacted]. rewrite <- app_assoc. reflexivity.
Qed.

(* Verify.selected, as a function of the two fields it reads *)
Definition sel_of (ps : list dpath) (rs : list string) : list string :=
  map (fun p : dpath => d_str (snd p)) (filter (fun p => negb (withheld ps rs (fst p))) ps).

Lemma presentation_facts token jwt L ds s1 cseg s3 alg :
  sd_jwt_parts token = (jwt, L, None) -> jwt_parts_m jwt = Val (s1, cseg, s3) ->
  o_claims O cseg = Ok (blind t) ->
  declared_halg (blind t) = Some alg -> o_hash O alg = H ->
  NoDup L -> (forall s, In s L -> In (H s) (alldigs t) -> In (H s) (hdigs t)) -> decode_all H (o_dec O) L = Ok ds ->
  exists ps, holder_presentation O token = Val {| h_jwt := jwt; h_redacted := []; h_paths := ps; h_kb := None |} /\
    forall rs, incl (sel_of ps rs) L /\ NoDup (sel_of ps rs) /\ exists ds', decode_all H (o_dec O) (sel_of ps rs) = Ok ds'.
Proof.
  intros Hp Hjp Hcl Ha Ho HndL Hdecoy Hd.
  destruct (restore_full_ok_paths H enc (o_dec O) show_nat hash_inj dec_enc t Hwf Hnd Hndh Hheight L ds HndL Hdecoy Hd)
    as (ps & Hps & Hpl & Hndp & _).
  exists ps. split.
  { unfold holder_presentation. rewrite sd_jwt_parts_m_total, Hp. cbn [obind]. rewrite Hjp. cbn [obind]. rewrite Hcl. cbn [of_res obind].
    rewrite Ha, Ho, Hps. reflexivity. }
  assert (Hin : forall pd, In pd ps -> In (d_str (snd pd)) L /\ from_base64 H (o_dec O) (d_str (snd pd)) = Ok (snd pd)).
  { intros pd Hpd. rewrite Forall_forall in Hpl. apply (decode_all_in H (o_dec O) L ds Hd), Hpl, Hpd. }
  intros rs. unfold sel_of. split; [|split].
  - intros s Hs. apply in_map_iff in Hs as (pd & <- & Hpd). apply filter_In in Hpd as [Hpd _]. apply Hin, Hpd.
  - apply NoDup_map_filter. apply (NoDup_map_inv H). rewrite map_map.
    erewrite map_ext_in; [exact Hndp|]. intros pd Hpd. symmetry. eapply from_base64_str, Hin, Hpd.
  - eexists. rewrite <- map_map. apply decode_all_strs.
    intros d Hd'. apply in_map_iff in Hd' as (pd & <- & Hpd). apply filter_In in Hpd as [Hpd _]. apply Hin, Hpd.
Qed.

Theorem present_redact_build_verify token jwt L ds s1 cseg s3 hdr0 alg (rs : list string) (E : build_env) kbpol :
  sd_jwt_parts token = (jwt, L, None) -> jwt_parts_m jwt = Val (s1, cseg, s3) ->
  o_claims O cseg = Ok (blind t) -> o_jwt O jwt = Val (hdr0, blind t) ->
  declared_halg (blind t) = Some alg -> o_hash O alg = H ->
  kb_bound (blind t) = false ->
  NoDup L -> (forall s, In s L -> In (H s) (alldigs t) -> In (H s) (hdigs t)) -> decode_all H (o_dec O) L = Ok ds ->
  Forall (fun x => contains tilde x = false) (jwt :: L) ->
  exists h0, holder_presentation O token = Val h0 /\
    let h := redact_all h0 rs in
    h_redacted h = rs /\
    holder_build O E h = Val (presentation_prefix jwt (selected h)) /\
    (forall s, In s (selected h) -> In s L) /\
    verifier_verify O (presentation_prefix jwt (selected h)) kbpol = Val (hdr0, drop_alg (proj (ownS H (selected h)) t)).
Proof.
  intros Hp Hjp Hcl Hj Ha Ho Hcnf HndL Hdecoy Hd Htil.
  destruct (presentation_facts token jwt L ds s1 cseg s3 alg Hp Hjp Hcl Ha Ho HndL Hdecoy Hd) as (ps & Hpres & Hsel).
  destruct (Hsel rs) as (Hsub & Hndsel & ds' & Hds').
  eexists. split; [exact Hpres|]. rewrite redact_all_eq. cbn [h_jwt h_redacted h_paths h_kb app].
  set (h := {| h_jwt := jwt; h_redacted := rs; h_paths := ps; h_kb := None |}). change (selected h) with (sel_of ps rs).
  split; [reflexivity|]. split; [exact (build_unbound_shape O E h s1 cseg s3 (blind t) Hjp Hcl Hcnf)|]. split; [exact Hsub|].
  apply (verifier_verify_complete O H enc hash_inj dec_enc t Hwf Hnd Hndh Hheight _ kbpol jwt (sel_of ps rs) ds' hdr0 alg); auto.
  - rewrite prefix_is_serialise. apply sd_jwt_parts_serialise; [|reflexivity]. exact (Forall_cons_incl _ _ _ _ Hsub Htil).
  - unfold kb_bound in Hcnf. destruct (jget "cnf" (blind t)); try discriminate. reflexivity.
Qed.

(* the key-bound variant: key_binding(aud, alg) before build(); the KB-JWT the holder signs is assumed to verify
   under the bound key and the verifier's key-binding policy (oracles e_sign / o_kb) *)
Theorem present_redact_bind_build_verify token jwt L ds s1 cseg s3 hdr0 alg (rs : list string) (E : build_env) aud jalg kb n e :
  sd_jwt_parts token = (jwt, L, None) -> jwt_parts_m jwt = Val (s1, cseg, s3) ->
  o_claims O cseg = Ok (blind t) -> o_jwt O jwt = Val (hdr0, blind t) ->
  declared_halg (blind t) = Some alg -> o_hash O alg = H ->
  kb_bound (blind t) = true -> is_null (jget "cnf" (blind t)) = false ->
  jget "kty" (jget "cnf" (blind t)) = JStr "RSA" -> jget "e" (jget "cnf" (blind t)) = JStr e -> jget "n" (jget "cnf" (blind t)) = JStr n ->
  NoDup L -> (forall s, In s L -> In (H s) (alldigs t) -> In (H s) (hdigs t)) -> decode_all H (o_dec O) L = Ok ds ->
  Forall (fun x => contains tilde x = false) (jwt :: L) ->
  forall ps, holder_presentation O token = Val {| h_jwt := jwt; h_redacted := []; h_paths := ps; h_kb := None |} ->
  let h := holder_key_binding (redact_all {| h_jwt := jwt; h_redacted := []; h_paths := ps; h_kb := None |} rs) aud jalg in
  let prefix := presentation_prefix jwt (selected h) in
  e_sign E (kb_header jalg) (kb_claims aud (e_nonce E) (e_iat E) (H prefix)) = Val kb ->
  kb <> "" -> contains tilde kb = false ->
  o_kb O kb n e = Val (kb_header jalg, kb_claims aud (e_nonce E) (e_iat E) (H prefix)) ->
  holder_build O E h = Val (prefix ++ kb)%string /\
  verifier_verify O (prefix ++ kb)%string true = Val (hdr0, drop_alg (proj (ownS H (selected h)) t)).
Proof.
  intros Hp Hjp Hcl Hj Ha Ho Hcnf _ Hkty He Hn HndL Hdecoy Hd Htil ps Hpres h prefix.
  destruct (presentation_facts token jwt L ds s1 cseg s3 alg Hp Hjp Hcl Ha Ho HndL Hdecoy Hd) as (ps' & Hpres' & Hsel).
  rewrite Hpres in Hpres'. injection Hpres' as <-. destruct (Hsel rs) as (Hsub & Hndsel & ds' & Hds').
  assert (Hh : h = {| h_jwt := jwt; h_redacted := rs; h_paths := ps; h_kb := Some (aud, jalg) |}).
  { unfold h. rewrite redact_all_eq. reflexivity. }
  subst prefix. clearbody h. subst h. change (selected _) with (sel_of ps rs).
  intros Hsign Hkbne Hkbt Hokb.
  pose proof (Forall_cons_incl _ _ _ _ Hsub Htil) as Htil'.
  split.
  { eapply build_bound_shape; [exact Hjp|exact Hcl|exact Hcnf|exact Ha|reflexivity|]. rewrite Ho. exact Hsign. }
  rewrite serialise_kb.
  apply (verifier_verify_accepts O H enc hash_inj dec_enc t Hwf Hnd Hndh Hheight _ true (sel_of ps rs) ds' hdr0 alg); auto.
  apply verifier_verify_raw_iff. exists jwt, (Some kb), alg. repeat split; try assumption.
  { rewrite sd_jwt_parts_serialise by assumption. destruct (String.eqb_spec kb ""); [contradiction|reflexivity]. }
  right. split; [exact Hcnf|].
  exists kb, (kb_header jalg), (kb_claims aud (e_nonce E) (e_iat E) (H (presentation_prefix jwt (sel_of ps rs)))), (H (presentation_prefix jwt (sel_of ps rs))).
  repeat split.
  - apply verify_kb_iff. exists n, e. repeat split; assumption.
  - rewrite drop_kb_serialise, <- prefix_is_serialise, Ho by assumption. reflexivity.
Qed.
End C02.
