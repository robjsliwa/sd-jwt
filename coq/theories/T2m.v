(* From presented strings to disclosures: a string that decodes is well classified (T2l.ok_disc) unless it hashes to a
   decoy, so T2l.restore_all speaks of the pass loop on any duplicate-free list of strings. *)
From Coq Require Import List String.
Import ListNotations.
Require Import SDJ.Json SDJ.Model2 SDJ.ATree SDJ.T2c SDJ.T2e SDJ.T2k SDJ.T2l SDJ.Restore2.
Local Open Scope string_scope.

Lemma from_base64_str H dec s d : from_base64 H dec s = Ok d -> d_str d = s /\ d_digest d = H s.
Proof.
  unfold from_base64. destruct (dec s) as [|[| | | |[|salt [|b [|c [|]]]]|]]; try discriminate.
  - intros [= <-]. split; reflexivity.
  - destruct b as [| | |name| |]; try discriminate. destruct (reserved name); [discriminate|]. intros [= <-]. split; reflexivity.
Qed.

Lemma decode_all_strs (H : string -> string) (dec : string -> dec_result) (ds : list disc) :
  (forall d, In d ds -> from_base64 H dec (d_str d) = Ok d) -> decode_all H dec (map d_str ds) = Ok ds.
Proof.
  induction ds as [|d r IH]; intros Hall; [reflexivity|]. cbn [map decode_all].
  rewrite (Hall d (or_introl eq_refl)), IH by (intros d' Hd'; apply Hall; right; exact Hd'). reflexivity.
Qed.

Section M.
Variable H : string -> string.
Variable enc : list json -> string.
Variable dec : string -> dec_result.
Variable show_nat : nat -> string.
Hypothesis hash_inj : forall x y, H x = H y -> x = y.
Hypothesis dec_enc : forall ps, dec (enc ps) = DJson (JArr ps).

Notation blind := (blind H enc).
Notation view := (view H enc).
Notation dig_item := (dig_item H enc).
Notation dig_mem := (dig_mem H enc).
Notation hdigs := (hdigs H enc).
Notation alldigs := (alldigs H enc).
Notation wf := (wf H enc).
Notation IsNode := (IsNode H enc).

Notation from_base64 := (from_base64 H dec).
Notation decode_all := (decode_all H dec).
(* restore_passes is the pass loop alone; Restore2.restore_disclosures, which adds the checks after it, is treated in T2o *)
Notation restore_disclosures := (restore_passes H dec show_nat).

(* the array a disclosure string decodes to *)
Definition parts_of (salt : json) (k : option string) (v : json) : list json :=
  match k with Some n => [salt; JStr n; v] | None => [salt; v] end.

Lemma hdigs_node g : forall t, In g (hdigs t) -> exists salt k v, IsNode g k v t /\ g = H (enc (parts_of salt k v)).
Proof.
  induction t as [j | items IH | mems IH] using atree_ind_in; intros Hg; [destruct Hg| |].
  - rewrite (hdigs_arr H enc) in Hg. apply in_flat_map in Hg as [[k s] [Hin Hg]].
    assert (Hdeep : In g (hdigs s) -> exists salt k v, IsNode g k v (AArr items) /\ g = H (enc (parts_of salt k v))).
    { intros Hs. destruct (IH _ Hin Hs) as (salt & k0 & v & Hn & Hq). exists salt, k0, v. split; [eapply in_item_in; eauto|assumption]. }
    destruct k as [|salt|g0]; cbn in Hg; [auto| |auto]. destruct Hg as [<-|Hg]; [|auto].
    exists salt, None, (blind s). split; [eapply in_item_here; eauto|reflexivity].
  - rewrite (hdigs_obj H enc) in Hg. apply in_flat_map in Hg as [[name [k s]] [Hin Hg]].
    assert (Hdeep : In g (hdigs s) -> exists salt k v, IsNode g k v (AObj mems) /\ g = H (enc (parts_of salt k v))).
    { intros Hs. destruct (IH _ Hin Hs) as (salt & k0 & v & Hn & Hq). exists salt, k0, v. split; [eapply in_mem_in; eauto|assumption]. }
    destruct k as [|salt|l]; cbn in Hg; [auto| |auto]. destruct Hg as [<-|Hg]; [|auto].
    exists salt, (Some name), (blind s). split; [eapply in_mem_here; eauto|reflexivity].
Qed.

Lemma IsNode_arr_inv g k v items : IsNode g k v (AArr items) ->
  (exists salt s, In (IHid salt, s) items /\ g = dig_item salt s /\ k = None /\ v = blind s) \/
  (exists ik s, In (ik, s) items /\ IsNode g k v s).
Proof. intros Hn. inversion Hn; subst; [left|right]; eauto 10. Qed.
Lemma IsNode_obj_inv g k v mems : IsNode g k v (AObj mems) ->
  (exists name salt s, In (name, (MHid salt, s)) mems /\ g = dig_mem salt name s /\ k = Some name /\ v = blind s) \/
  (exists name mk s, In (name, (mk, s)) mems /\ IsNode g k v s).
Proof. intros Hn. inversion Hn; subst; [left|right]; eauto 12. Qed.

Lemma IsNode_name_ok g name v : forall t, wf t -> IsNode g (Some name) v t -> reserved name = false.
Proof.
  intros t Hw Hn. remember (Some name) as k eqn:Ek. revert Hw.
  induction Hn as [items salt s Hin _ Hk _ | items ik s Hin _ IH | mems name' salt s Hin _ Hk _ | mems name' mk s Hin _ IH]; intros Hw.
  - congruence.
  - apply IH, (wf_arr_in H enc _ _ Hw Hin).
  - assert (name' = name) as -> by congruence. destruct (wf_obj_in H enc _ _ Hw Hin) as [_ (Hd & Hs & _)].
    unfold reserved. apply String.eqb_neq in Hd, Hs. rewrite Hd, Hs. reflexivity.
  - apply IH, (wf_obj_in H enc _ _ Hw Hin).
Qed.

Variable t : atree.
Hypothesis Hwf : wf t.
Hypothesis Hnd : NoDup (alldigs t).
Hypothesis Hndh : NoDup (hdigs t).
Hypothesis Hheight : aheight t <= 129.

Lemma from_base64_ok s d :
  (In (H s) (alldigs t) -> In (H s) (hdigs t)) ->
  from_base64 s = Ok d -> d_digest d = H s /\ ok_disc H enc t d.
Proof.
  intros Hdecoy Hf. destruct (from_base64_str _ _ _ _ Hf) as [_ Hdg].
  split; [assumption|]. unfold ok_disc. rewrite Hdg.
  destruct (in_dec string_dec (H s) (alldigs t)) as [Hin|Hnin]; [left|right; assumption].
  destruct (hdigs_node _ _ (Hdecoy Hin)) as (salt & k & v & Hnode & Hq).
  apply hash_inj in Hq. subst s. unfold from_base64 in Hf. rewrite dec_enc in Hf.
  destruct k as [name|]; cbn in Hf.
  - rewrite (IsNode_name_ok _ _ _ _ Hwf Hnode) in Hf. injection Hf as <-. cbn. assumption.
  - injection Hf as <-. cbn. assumption.
Qed.

Definition ownS (L : list string) : Rset := fun g => existsb (fun s => String.eqb (H s) g) L.

Lemma decode_all_spec : forall L ds, decode_all L = Ok ds ->
  (forall s, In s L -> In (H s) (alldigs t) -> In (H s) (hdigs t)) ->
  map d_digest ds = map H L /\ Forall (ok_disc H enc t) ds.
Proof.
  induction L as [|s r IH]; cbn; intros ds Hd Hdecoy.
  - injection Hd as <-. split; [reflexivity|constructor].
  - destruct (from_base64 s) as [d|] eqn:Ef; cbn in Hd; [|discriminate].
    destruct (decode_all r) as [ds'|] eqn:Er; cbn in Hd; [|discriminate]. injection Hd as <-.
    destruct (from_base64_ok s d (Hdecoy s (or_introl eq_refl)) Ef) as [Hq Hok].
    destruct (IH ds' eq_refl (fun s' Hs' => Hdecoy s' (or_intror Hs'))) as [Hm HF].
    split; [cbn; congruence|constructor; assumption].
Qed.

Lemma own_ownS ds L : map d_digest ds = map H L -> forall g, own ds g = ownS L g.
Proof.
  revert L. induction ds as [|d r IH]; intros [|s L'] Hm g; cbn in Hm; try discriminate; [reflexivity|].
  injection Hm as Hq Hm. unfold own, ownS in *. cbn. rewrite Hq. f_equal. apply IH. assumption.
Qed.

Lemma view_ownS ds L : map d_digest ds = map H L -> view (ownS L) t = view (own ds) t.
Proof. intros Hm. apply view_ext. intros g _. symmetry. apply own_ownS, Hm. Qed.

Lemma NoDup_map_H L : NoDup L -> NoDup (map H L).
Proof.
  induction 1 as [|s r Hni _ IH]; cbn; constructor; [|assumption].
  intros Hin. apply in_map_iff in Hin as [s' [Hq Hs']]. apply hash_inj in Hq. subst. contradiction.
Qed.

Lemma restore_passes_ok L ds :
  NoDup L -> (forall s, In s L -> In (H s) (alldigs t) -> In (H s) (hdigs t)) ->
  decode_all L = Ok ds ->
  exists placed, restore_disclosures (blind t) L = Ok (view (ownS L) t, placed) /\
                 Forall (placed_ok H enc show_nat t R0 (own ds) ds) placed /\ NoDup (map pdig placed) /\
                 exists Rf, (forall g, Rf g = true -> In g (map pdig placed)) /\
                            (forall g k v, Exposed H enc Rf g k v t -> own ds g = false) /\
                            (forall g, Rf g = true -> own ds g = true).
Proof.
  intros HndL Hdecoy Ed. unfold restore_disclosures. rewrite Ed. cbn [bind].
  destruct (decode_all_spec L ds Ed Hdecoy) as [Hm HF].
  assert (Hndd : NoDup (map d_digest ds)) by (rewrite Hm; apply NoDup_map_H; assumption).
  destruct (restore_all H enc show_nat t Hwf Hnd Hndh Hheight ds HF Hndd) as (placed & Hps & Hrest).
  exists placed. split; [|assumption]. rewrite <- (view_R0_blind H enc), Hps, (view_ownS ds L Hm). reflexivity.
Qed.

Theorem restore_disclosures_ok L ds :
  NoDup L -> (forall s, In s L -> In (H s) (alldigs t) -> In (H s) (hdigs t)) ->
  decode_all L = Ok ds ->
  exists ps, restore_disclosures (blind t) L = Ok (view (ownS L) t, ps).
Proof. intros HndL Hdecoy Ed. destruct (restore_passes_ok L ds HndL Hdecoy Ed) as (ps & Hps & _). eauto. Qed.

(* C03/C08 core: any duplicate-free list of strings, in any order, none hashing to a decoy *)
Theorem restore_disclosures_spec L :
  NoDup L -> (forall s, In s L -> In (H s) (alldigs t) -> In (H s) (hdigs t)) ->
  restore_disclosures (blind t) L = Err \/
  exists ps, restore_disclosures (blind t) L = Ok (view (ownS L) t, ps).
Proof.
  intros HndL Hdecoy. destruct (decode_all L) as [ds|] eqn:Ed.
  - right. eapply restore_disclosures_ok; eassumption.
  - left. unfold restore_disclosures. rewrite Ed. reflexivity.
Qed.
End M.
