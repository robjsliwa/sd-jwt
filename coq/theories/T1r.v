(* C14, "valid => Ok": every marking whose paths resolve in the claims, listed so that no path comes after
   a path that addresses the same node or one of its ancestors, is accepted by the issuer's fold. *)
From Coq Require Import List String Ascii Bool Arith Lia Sorting.Sorted Permutation.
Import ListNotations.
Require Import SDJ.Json SDJ.ATree SDJ.T2c SDJ.T1a SDJ.T1b SDJ.T1c SDJ.T1d SDJ.T1e SDJ.T1f SDJ.T1j SDJ.T1m.
Local Open Scope string_scope.

(* the node a path addresses: member names and element positions from the root *)
Inductive step := SKey (k : string) | SIdx (i : nat).
Definition addr := list step.

Definition prefix (b a : addr) : Prop := exists c, a = (b ++ c)%list.

(* no address comes after itself or after one of its ancestors: descendants before ancestors, no repeats *)
Fixpoint ordered (l : list addr) : Prop :=
  match l with [] => True | a :: r => Forall (fun a' => ~ prefix a a') r /\ ordered r end.

Section R.
Variable H : string -> string.
Variable enc : list json -> string.
Variable parse_index : string -> option nat.
Variable parse_usize : string -> option nat.
Variable pos : string -> nat.
Notation wf := (wf H enc).
Notation mark := (mark H enc parse_index parse_usize pos).
Notation mark_fold := (T1j.mark_fold H enc parse_index parse_usize pos).
Notation add_sd := (T1a.add_sd pos).

Definition findm (tok : string) (mems : amems) := find (fun m : string * (mkind * atree) => String.eqb (fst m) tok) mems.

(* resolution of a path in the current annotated tree: every node on the way, and the addressed node, must
   still be in the clear *)
Fixpoint resolve (toks : list string) (key : string) (t : atree) : option addr :=
  match toks with
  | [] =>
      match t with
      | AArr items => match parse_usize key with
                      | Some i => match nth_error items i with Some (IPlain, _) => Some [SIdx i] | _ => None end
                      | None => None end
      | AObj mems => match findm key mems with Some (_, (MPlain, _)) => Some [SKey key] | _ => None end
      | ALeaf _ => None
      end
  | tok :: rest =>
      match t with
      | AObj mems => match findm tok mems with
                     | Some (_, (MPlain, s)) => option_map (cons (SKey tok)) (resolve rest key s)
                     | _ => None end
      | AArr items => match parse_index tok with
                      | Some i => match nth_error items i with
                                  | Some (IPlain, s) => option_map (cons (SIdx i)) (resolve rest key s)
                                  | _ => None end
                      | None => None end
      | ALeaf _ => None
      end
  end.

(* the same on plain JSON claims (what "the path addresses an existing member or element" means) *)
Fixpoint jresolve (toks : list string) (key : string) (j : json) : option addr :=
  match toks with
  | [] =>
      match j with
      | JArr xs => match parse_usize key with
                   | Some i => match nth_error xs i with Some _ => Some [SIdx i] | None => None end
                   | None => None end
      | JObj kvs => match obj_get key kvs with Some _ => Some [SKey key] | None => None end
      | _ => None
      end
  | tok :: rest =>
      match j with
      | JObj kvs => match obj_get tok kvs with
                    | Some v => option_map (cons (SKey tok)) (jresolve rest key v)
                    | None => None end
      | JArr xs => match parse_index tok with
                   | Some i => match nth_error xs i with
                               | Some v => option_map (cons (SIdx i)) (jresolve rest key v)
                               | None => None end
                   | None => None end
      | _ => None
      end
  end.

Lemma findm_embed tok kvs :
  findm tok (map (fun kv : string * json => let '(k, v) := kv in (k, (MPlain, embed v))) kvs) =
  match obj_get tok kvs with Some v => Some (tok, (MPlain, embed v)) | None => None end.
Proof.
  unfold findm. induction kvs as [|[k v] r IH]; [reflexivity|]. cbn [map find fst obj_get].
  rewrite String.eqb_sym. destruct (String.eqb_spec tok k) as [->|Hne]; [reflexivity|]. exact IH.
Qed.

Lemma resolve_embed : forall toks key j, resolve toks key (embed j) = jresolve toks key j.
Proof.
  induction toks as [|tok rest IH]; intros key j.
  - destruct j as [| | | |xs|kvs]; try reflexivity.
    + cbn [embed resolve jresolve]. destruct (parse_usize key) as [i|]; [|reflexivity].
      rewrite nth_error_map. destruct (nth_error xs i); reflexivity.
    + cbn [embed resolve jresolve]. rewrite findm_embed. destruct (obj_get key kvs); reflexivity.
  - destruct j as [| | | |xs|kvs]; try reflexivity.
    + cbn [embed resolve jresolve]. destruct (parse_index tok) as [i|]; [|reflexivity].
      rewrite nth_error_map. destruct (nth_error xs i); [|reflexivity]. cbn [option_map]. rewrite IH. reflexivity.
    + cbn [embed resolve jresolve]. rewrite findm_embed. destruct (obj_get tok kvs); [|reflexivity]. rewrite IH. reflexivity.
Qed.

Lemma findm_name tok mems n x : findm tok mems = Some (n, x) -> n = tok.
Proof.
  unfold findm. intros Hf. apply find_some in Hf as [_ Hq]. cbn in Hq. apply String.eqb_eq in Hq. exact Hq.
Qed.

Lemma findm_mid (pre post : amems) tok x : ~ In tok (map fst pre) -> findm tok (pre ++ (tok, x) :: post)%list = Some (tok, x).
Proof. apply find_mid. Qed.

Lemma findm_add_sd g tok : tok <> "_sd" -> forall mems, findm tok (add_sd g mems) = findm tok mems.
Proof.
  unfold findm. intros Hne. induction mems as [|[n [k s]] r IH]; cbn [add_sd].
  - cbn [find fst]. destruct (String.eqb_spec "_sd" tok); [congruence|reflexivity].
  - destruct (String.compare "_sd" n) eqn:Ec.
    + apply String.compare_eq_iff in Ec. subst n. cbn [find fst]. destruct (String.eqb_spec "_sd" tok); [congruence|reflexivity].
    + cbn [find fst]. destruct (String.eqb_spec "_sd" tok); [congruence|reflexivity].
    + cbn [find fst]. destruct (String.eqb n tok); [reflexivity|]. exact IH.
Qed.

Lemma findm_plain_not_sd tok mems n s : Forall sd_names_ok mems -> findm tok mems = Some (n, (MPlain, s)) -> tok <> "_sd".
Proof.
  intros Hn Hf. pose proof (findm_name _ _ _ _ Hf) as ->. apply find_some in Hf as [Hin _].
  rewrite Forall_forall in Hn. specialize (Hn _ Hin). unfold sd_names_ok in Hn. cbn in Hn. exact Hn.
Qed.

Lemma upd_mem_none tok f mems x : upd_mem tok f mems = None -> findm tok mems = Some (tok, x) -> f x = None.
Proof.
  unfold findm. induction mems as [|[n y] r IH]; cbn [find fst upd_mem]; [discriminate|].
  destruct (String.eqb_spec n tok) as [->|Hn].
  - intros Hu [= ->]. destruct (f x); [discriminate|reflexivity].
  - destruct (upd_mem tok f r); [discriminate|]. auto.
Qed.

Lemma mark_total salt : forall toks key t a, resolve toks key t = Some a -> exists t', mark toks key salt t = Some t'.
Proof.
  induction toks as [|tok rest IH]; intros key t a Hr.
  - destruct t as [j|items|mems]; cbn [resolve] in Hr; [discriminate| |]; cbn [T1a.mark].
    + destruct (parse_usize key) as [i|]; [|discriminate]. unfold upd_item.
      destruct (nth_error items i) as [[[| |] s]|]; try discriminate. cbn. eauto.
    + destruct (findm key mems) as [[n [[| |] s]]|] eqn:Ef; try discriminate.
      pose proof (findm_name _ _ _ _ Ef) as ->.
      destruct (upd_mem key _ mems) as [mems'|] eqn:Eu.
      * unfold findm in Ef. rewrite Ef. eauto.
      * apply (upd_mem_none _ _ _ _ Eu) in Ef. discriminate.
  - destruct t as [j|items|mems]; cbn [resolve] in Hr; [discriminate| |]; cbn [T1a.mark].
    + destruct (parse_index tok) as [i|]; [|discriminate]. unfold upd_item.
      destruct (nth_error items i) as [[[| |] s]|]; try discriminate.
      destruct (resolve rest key s) as [a'|] eqn:Er; [|discriminate]. destruct (IH _ _ _ Er) as [s' ->]. cbn. eauto.
    + destruct (findm tok mems) as [[n [[| |] s]]|] eqn:Ef; try discriminate.
      pose proof (findm_name _ _ _ _ Ef) as ->.
      destruct (resolve rest key s) as [a'|] eqn:Er; [|discriminate]. destruct (IH _ _ _ Er) as [s' Hs'].
      destruct (upd_mem tok _ mems) as [mems'|] eqn:Eu; [cbn; eauto|].
      apply (upd_mem_none _ _ _ _ Eu) in Ef. cbv beta iota in Ef. rewrite Hs' in Ef. discriminate.
Qed.

(* Resolution looks at a node through one plain child only: the child it selects there heads the address, and the
   path resolves the same way in any node that has at that place a plain child in which the rest of the path
   resolves as before. *)
Lemma resolve_arr_inv ptoks pkey items a : resolve ptoks pkey (AArr items) = Some a ->
  exists i s a', nth_error items i = Some (IPlain, s) /\ a = SIdx i :: a' /\
    forall items' s', nth_error items' i = Some (IPlain, s') ->
      (forall rest, resolve rest pkey s = Some a' -> resolve rest pkey s' = Some a') ->
      resolve ptoks pkey (AArr items') = Some a.
Proof.
  destruct ptoks as [|tok rest]; cbn [resolve]; intros Hp.
  - destruct (parse_usize pkey) as [i|]; [|discriminate].
    destruct (nth_error items i) as [[[| |] s]|] eqn:En; try discriminate. injection Hp as <-.
    exists i, s, []. split; [exact En|]. split; [reflexivity|]. intros items' s' En' _. rewrite En'. reflexivity.
  - destruct (parse_index tok) as [i|]; [|discriminate].
    destruct (nth_error items i) as [[[| |] s]|] eqn:En; try discriminate.
    destruct (resolve rest pkey s) as [a'|] eqn:Er; [|discriminate]. injection Hp as <-.
    exists i, s, a'. split; [exact En|]. split; [reflexivity|]. intros items' s' En' Hs. rewrite En', (Hs _ Er). reflexivity.
Qed.

Lemma resolve_obj_inv ptoks pkey mems a : resolve ptoks pkey (AObj mems) = Some a ->
  exists n s a', findm n mems = Some (n, (MPlain, s)) /\ a = SKey n :: a' /\
    forall mems' s', findm n mems' = Some (n, (MPlain, s')) ->
      (forall rest, resolve rest pkey s = Some a' -> resolve rest pkey s' = Some a') ->
      resolve ptoks pkey (AObj mems') = Some a.
Proof.
  destruct ptoks as [|tok rest]; cbn [resolve]; intros Hp.
  - destruct (findm pkey mems) as [[n [[| |] s]]|] eqn:Ef; try discriminate. injection Hp as <-.
    pose proof (findm_name _ _ _ _ Ef) as ->.
    exists pkey, s, []. split; [exact Ef|]. split; [reflexivity|]. intros mems' s' Ef' _. rewrite Ef'. reflexivity.
  - destruct (findm tok mems) as [[n [[| |] s]]|] eqn:Ef; try discriminate.
    destruct (resolve rest pkey s) as [a'|] eqn:Er; [|discriminate]. injection Hp as <-.
    pose proof (findm_name _ _ _ _ Ef) as ->.
    exists tok, s, a'. split; [exact Ef|]. split; [reflexivity|]. intros mems' s' Ef' Hs. rewrite Ef', (Hs _ Er). reflexivity.
Qed.

Lemma not_prefix_cons x b a : ~ prefix (x :: b) (x :: a) -> ~ prefix b a.
Proof. intros Hn [c ->]. apply Hn. exists c. reflexivity. Qed.

Lemma mark_keeps salt : forall qtoks qkey t t' b, wf t ->
  resolve qtoks qkey t = Some b -> mark qtoks qkey salt t = Some t' ->
  forall ptoks pkey a, resolve ptoks pkey t = Some a -> ~ prefix b a -> resolve ptoks pkey t' = Some a.
Proof.
  intros qtoks key t t' b Hw Hq Hm. destruct (mark_marks Hm) as (k & u & _ & HM). clear Hm. revert b Hq.
  induction HM as [pre s post Hi | pre s post Hni | tok rest pre s s' post k u Hi HM IH | tok rest pre s s' post k u Hni HM IH];
    intros b Hq ptoks pkey a Hp Hnp; cbn [resolve] in Hq.
  - rewrite Hi, nth_error_mid in Hq. injection Hq as <-.
    destruct (resolve_arr_inv _ _ _ _ Hp) as (i & s0 & a' & En & -> & Hk). apply (Hk _ s0); [|auto].
    destruct (Nat.eq_dec i (List.length pre)) as [->|Hne]; [exfalso; apply Hnp; exists a'; reflexivity|].
    rewrite <- En. apply nth_error_mid_other. assumption.
  - rewrite findm_mid in Hq by assumption. injection Hq as <-.
    destruct (resolve_obj_inv _ _ _ _ Hp) as (n & s0 & a' & Ef & -> & Hk). apply (Hk _ s0); [|auto].
    destruct (String.eqb_spec n key) as [->|Hne]; [exfalso; apply Hnp; exists a'; reflexivity|].
    rewrite findm_add_sd by exact (findm_plain_not_sd _ _ _ _ (names_ok_of_wf H enc _ Hw) Ef).
    rewrite <- Ef. apply find_mid_other. assumption.
  - rewrite Hi, nth_error_mid in Hq. destruct (resolve rest key s) as [b'|]; [|discriminate]. injection Hq as <-.
    destruct (resolve_arr_inv _ _ _ _ Hp) as (i & s0 & a' & En & -> & Hk).
    destruct (Nat.eq_dec i (List.length pre)) as [->|Hne].
    + rewrite nth_error_mid in En. injection En as <-. apply (Hk _ s'); [apply nth_error_mid|].
      intros prest Hr. exact (IH (wf_item_mid H enc _ _ _ _ Hw) _ eq_refl _ _ _ Hr (not_prefix_cons _ _ _ Hnp)).
    + apply (Hk _ s0); [|auto]. rewrite <- En. apply nth_error_mid_other. assumption.
  - rewrite findm_mid in Hq by assumption.
    destruct (resolve rest key s) as [b'|]; [|discriminate]. injection Hq as <-.
    destruct (resolve_obj_inv _ _ _ _ Hp) as (n & s0 & a' & Ef & -> & Hk).
    destruct (String.eqb_spec n tok) as [->|Hne].
    + rewrite findm_mid in Ef by assumption. injection Ef as <-.
      apply (Hk _ s'); [apply findm_mid; assumption|].
      intros prest Hr. exact (IH (wf_mem_mid H enc _ _ _ _ _ Hw) _ eq_refl _ _ _ Hr (not_prefix_cons _ _ _ Hnp)).
    + apply (Hk _ s0); [|auto]. rewrite <- Ef. apply find_mid_other. assumption.
Qed.

Lemma mark_keeps_all salt toks key t t1 a (ps : list path) ar : wf t ->
  resolve toks key t = Some a -> mark toks key salt t = Some t1 ->
  Forall2 (fun p a' => resolve (fst p) (snd p) t = Some a') ps ar -> Forall (fun a' => ~ prefix a a') ar ->
  Forall2 (fun p a' => resolve (fst p) (snd p) t1 = Some a') ps ar.
Proof.
  intros Hw Hr Hm HF. induction HF as [|p a' ps' ar' Hr' HF' IH]; intros Hnp; constructor.
  - inversion Hnp as [|? ? Hn1 _]; subst. exact (mark_keeps salt toks key t t1 a Hw Hr Hm _ _ a' Hr' Hn1).
  - apply IH. inversion Hnp; assumption.
Qed.

Theorem mark_fold_total : forall (paths : list (list string * string)) (addrs : list addr) salts t,
  wf t -> Forall2 (fun p a => resolve (fst p) (snd p) t = Some a) paths addrs -> ordered addrs ->
  List.length paths <= List.length salts ->
  exists t', mark_fold t paths salts = Some t'.
Proof.
  induction paths as [|[toks key] ps IH]; intros addrs salts t Hw HF Hord Hlen.
  - exists t. reflexivity.
  - inversion HF as [|? a ? ar Hr HF']; subst. cbn [fst snd] in Hr.
    destruct salts as [|salt ss]; [cbn in Hlen; lia|]. cbn [T1j.mark_fold].
    destruct (mark_total salt toks key t a Hr) as [t1 Hm]. rewrite Hm.
    destruct Hord as [Hnp Hord'].
    apply (IH ar ss t1).
    + exact (mark_wf H enc parse_index parse_usize pos key salt toks t t1 Hw Hm).
    + exact (mark_keeps_all salt toks key t t1 a ps ar Hw Hr Hm HF' Hnp).
    + assumption.
    + cbn in Hlen. lia.
Qed.

(* stated on the claims as the issuer receives them *)
Corollary valid_marking_accepted (C : json) (paths : list (list string * string)) (addrs : list addr) salts :
  jwf C -> Forall2 (fun p a => jresolve (fst p) (snd p) C = Some a) paths addrs -> ordered addrs ->
  List.length paths <= List.length salts ->
  exists t', mark_fold (embed C) paths salts = Some t'.
Proof.
  intros HC HF Hord Hlen. apply (mark_fold_total paths addrs salts (embed C)); auto.
  - apply wf_embed. assumption.
  - clear -HF. induction HF as [|p a ps ar Hq HF IH]; constructor; [rewrite resolve_embed; exact Hq|exact IH].
Qed.
End R.
