(* C07 / C08: the specification's verification algorithm (RefVerify.rprocess: top-down, one pass, digest table,
   no code shared with the restorer model) computes the same projection as the library model's restorer. *)
From Coq Require Import List String Bool Arith Lia Sorting.Sorted.
Import ListNotations.
Require Import SDJ.Json SDJ.Model2 SDJ.ATree SDJ.T2b SDJ.T2c SDJ.T2d SDJ.T2e SDJ.T2f SDJ.T2h SDJ.T2k SDJ.T2m SDJ.T1b SDJ.T1c SDJ.T1m SDJ.RefVerify SDJ.C03Proofs.
Local Open Scope string_scope.

Lemma fold_left_map {A B C} (f : A -> C -> A) (h : B -> C) l : forall a,
  fold_left f (map h l) a = fold_left (fun a x => f a (h x)) l a.
Proof. induction l as [|x r IH]; intros a; [reflexivity|apply IH]. Qed.

Lemma fold_left_flat_map {A B C} (f : A -> C -> A) (h : B -> list C) l : forall a,
  fold_left f (flat_map h l) a = fold_left (fun a x => fold_left f (h x) a) l a.
Proof. induction l as [|x r IH]; intros a; [reflexivity|]. cbn [flat_map fold_left]. rewrite fold_left_app. apply IH. Qed.

(* A fold whose state may fail. The invariant speaks of the part of the list already processed, so that the
   state the fold starts from need not be generalised; a failure has to be explained by Bad. *)
Lemma fold_option_invariant {X Y} (f : option X -> Y -> option X) (I : list Y -> X -> Prop) (Bad : Prop) (l : list Y) :
  (forall y, f None y = None) ->
  (forall done y rest x, l = (done ++ y :: rest)%list -> I done x ->
     match f (Some x) y with Some x' => I (done ++ [y])%list x' | None => Bad end) ->
  forall a, I [] a -> match fold_left f l (Some a) with Some x' => I l x' | None => Bad end.
Proof.
  intros Hnone Hstep.
  assert (Hgen : forall rest done acc, l = (done ++ rest)%list ->
            match acc with Some x => I done x | None => Bad end ->
            match fold_left f rest acc with Some x' => I l x' | None => Bad end).
  { induction rest as [|y rest IH]; intros done acc Hl Hacc.
    - rewrite app_nil_r in Hl. subst done. exact Hacc.
    - cbn [fold_left]. apply (IH (done ++ [y])%list).
      + rewrite <- app_assoc. exact Hl.
      + destruct acc as [x|]; [exact (Hstep done y rest x Hl Hacc)|rewrite Hnone; exact Hacc]. }
  intros a Ha. exact (Hgen l [] (Some a) eq_refl Ha).
Qed.

Lemma fresh_next {X} (digs : X -> list string) done x rest (u0 u : list string) :
  NoDup (flat_map digs (done ++ x :: rest)) ->
  (forall g, In g (flat_map digs (done ++ x :: rest)) -> ~ In g u0) ->
  (forall g, In g u -> In g u0 \/ In g (flat_map digs done)) ->
  forall g, In g (digs x) -> ~ In g u.
Proof.
  rewrite flat_map_app. cbn [flat_map]. intros Hnd H0 Hu g Hg Hin.
  assert (Hg' : In g (digs x ++ flat_map digs rest)) by (apply in_or_app; left; exact Hg).
  destruct (Hu g Hin) as [Hi|Hi].
  - apply (H0 g); [apply in_or_app; right; exact Hg'|exact Hi].
  - exact (NoDup_app_disj _ _ g Hnd Hi Hg').
Qed.

Lemma use_digest_spec g u : match use_digest g u with Some u1 => u1 = g :: u | None => In g u end.
Proof.
  unfold use_digest. destruct (existsb (String.eqb g) u) eqn:E; [|reflexivity].
  apply existsb_exists in E as [x [Hx Hq]]. apply String.eqb_eq in Hq. subst x. exact Hx.
Qed.

Lemma step_digest {X} g u (K : rstate -> option X) (Q : X -> Prop) (Bad : Prop) :
  (In g u -> Bad) -> match K (g :: u) with Some x => Q x | None => Bad end ->
  match (match use_digest g u with None => None | Some u1 => K u1 end) with Some x => Q x | None => Bad end.
Proof.
  intros Hused HK. pose proof (use_digest_spec g u) as Hud.
  destruct (use_digest g u) as [u1|]; [subst u1; exact HK|exact (Hused Hud)].
Qed.

Lemma has_key_false k (kvs : list (string * json)) : has_key k kvs = false <-> ~ In k (map fst kvs).
Proof.
  unfold has_key. rewrite <- not_true_iff_false, existsb_exists, in_map_iff.
  split; intros Hn (kv & H1 & H2); apply Hn; exists kv.
  - split; [exact H2|]. rewrite H1. apply String.eqb_refl.
  - apply String.eqb_eq in H2. split; assumption.
Qed.

Lemma has_key_between (A B : list (string * json)) k :
  Forall (fun kv => slt (fst kv) k) A -> Forall (fun kv => slt k (fst kv)) B -> has_key k (A ++ B) = false.
Proof.
  rewrite !Forall_forall. intros HA HB. apply has_key_false. rewrite map_app, in_app_iff, !in_map_iff.
  intros [(kv & <- & Hkv)|(kv & <- & Hkv)]; [exact (slt_irrefl _ (HA _ Hkv))|exact (slt_irrefl _ (HB _ Hkv))].
Qed.

Lemma sorted_insert_obj_insert k v : forall l, sorted_insert k v l = obj_insert k v l.
Proof. induction l as [|[k' v'] r IH]; [reflexivity|]. cbn [sorted_insert obj_insert]. rewrite IH. reflexivity. Qed.

(* the three step functions that rprocess folds, under names *)
Section Steps.
Variable T : rtable.
Definition stepP (fuel : nat) (acc : option (list (string * json) * rstate)) (kv : string * json) :=
  match acc with
  | None => None
  | Some (out, u) => match rprocess fuel T (snd kv) u with
                     | Some (v', u') => Some (sorted_insert (fst kv) v' out, u')
                     | None => None end
  end.
Definition stepD (fuel : nat) (acc : option (list (string * json) * rstate)) (d : json) :=
  match acc with
  | None => None
  | Some (out, u) =>
      match d with
      | JStr g =>
          match use_digest g u with
          | None => None
          | Some u1 =>
              match rlookup g T with
              | None => Some (out, u1)
              | Some (RElement _) => None
              | Some (RMember name v) =>
                  if String.eqb name "_sd" || String.eqb name "..." || has_key name out then None
                  else match rprocess fuel T v u1 with
                       | Some (v', u2) => Some (sorted_insert name v' out, u2)
                       | None => None end
              end
          end
      | _ => None
      end
  end.
Definition stepA (fuel : nat) (acc : option (list json * rstate)) (x : json) :=
  match acc with
  | None => None
  | Some (out, u) =>
      match single_placeholder x with
      | None => None
      | Some (Some (JStr g)) =>
          match use_digest g u with
          | None => None
          | Some u1 =>
              match rlookup g T with
              | None => Some (out, u1)
              | Some (RMember _ _) => None
              | Some (RElement v) =>
                  match rprocess fuel T v u1 with
                  | Some (v', u2) => Some ((out ++ [v'])%list, u2)
                  | None => None end
              end
          end
      | Some (Some _) => None
      | Some None =>
          match rprocess fuel T x u with
          | Some (x', u') => Some ((out ++ [x'])%list, u')
          | None => None end
      end
  end.

Lemma rprocess_obj fuel kvs used :
  rprocess (S fuel) T (JObj kvs) used =
  match fold_left (stepP fuel) (filter (fun kv => negb (String.eqb (fst kv) "_sd")) kvs) (Some ([], used)) with
  | None => None
  | Some (out, u) =>
      match find (fun kv => String.eqb (fst kv) "_sd") kvs with
      | None => Some (JObj out, u)
      | Some (_, JArr ds) => match fold_left (stepD fuel) ds (Some (out, u)) with Some (out2, u2) => Some (JObj out2, u2) | None => None end
      | Some (_, _) => None
      end
  end.
Proof. reflexivity. Qed.

Lemma rprocess_arr fuel xs used :
  rprocess (S fuel) T (JArr xs) used =
  match fold_left (stepA fuel) xs (Some ([], used)) with Some (out, u) => Some (JArr out, u) | None => None end.
Proof. reflexivity. Qed.
End Steps.

Section RP.
Variable H : string -> string.
Variable enc : list json -> string.
Variable T : rtable.
Notation blind := (blind H enc).
Notation proj := (proj H enc).
Notation wf := (wf H enc).
Notation hdigs := (hdigs H enc).
Notation alldigs := (alldigs H enc).
Notation dig_item := (dig_item H enc).
Notation dig_mem := (dig_mem H enc).
Notation IsNode := (IsNode H enc).
Notation hdigs_item := (hdigs_item H enc).
Notation hdigs_mem := (hdigs_mem H enc).
Notation adigs_item := (adigs_item H enc alldigs).
Notation adigs_mem := (adigs_mem alldigs).
Notation mem_ok := (mem_ok H enc).
Notation bitem := (bitem H enc).
Notation bmem := (bmem H enc).
Notation stepA := (stepA T).
Notation stepP := (stepP T).
Notation stepD := (stepD T).

(* the set of opened nodes is the set of digests the table knows *)
Definition RT : Rset := fun g => match rlookup g T with Some _ => true | None => false end.
Definition rd (k : option string) (v : json) : rdisc := match k with Some name => RMember name v | None => RElement v end.

Definition table_ok (t : atree) : Prop :=
  forall g r, In g (alldigs t) -> rlookup g T = Some r -> exists k v, IsNode g k v t /\ r = rd k v.

(* what the induction carries from a tree to its subtrees *)
Definition conformant (t : atree) : Prop := wf t /\ NoDup (alldigs t) /\ NoDup (hdigs t) /\ table_ok t.

Lemma single_placeholder_blind s : wf s -> single_placeholder (blind s) = Some None.
Proof.
  intros Hw. destruct s as [j|items|mems]; [inversion Hw; subst; destruct j; cbn in *; tauto || reflexivity|reflexivity|].
  rewrite (blind_obj H enc). unfold single_placeholder. rewrite (proj2 (has_key_false _ _)); [reflexivity|].
  intros Hk. apply (keyed_keys bmem (bmem_key H enc)) in Hk. apply in_map_iff in Hk as [m [Hn Hin]].
  destruct m as [name [mk s]]. destruct (wf_obj_in H enc _ _ Hw Hin) as [_ [Hdots _]]. exact (Hdots Hn).
Qed.

Lemma node_at_item items it g k v :
  wf (AArr items) -> NoDup (alldigs (AArr items)) -> In it items -> In g (adigs_item it) -> IsNode g k v (AArr items) ->
  (exists salt, fst it = IHid salt /\ g = dig_item salt (snd it)) \/ IsNode g k v (snd it).
Proof.
  intros Hw Hnd Hin Hg Hn. rewrite alldigs_arr in Hnd.
  apply IsNode_arr_inv in Hn as [(salt & s & Hin' & Hq & _)|(ik & s & Hin' & Hn)].
  - left. exists salt.
    rewrite (NoDup_flat_map_same adigs_item items it (IHid salt, s) g Hnd Hin Hin' Hg (or_introl (eq_sym Hq))).
    split; [reflexivity|exact Hq].
  - right. destruct (wf_arr_in H enc _ _ Hw Hin') as [Hws Hok].
    rewrite (NoDup_flat_map_same adigs_item items it (ik, s) g Hnd Hin Hin' Hg); [exact Hn|].
    apply (alldigs_sub_item H enc _ Hok), (hdigs_alldigs H enc _ Hws), (IsNode_hdigs H enc _ _ _ _ Hn).
Qed.

(* In an object the digest of a hidden member stands in the list of the _sd member, not with the member. *)
Lemma node_at_mem mems m g k v :
  wf (AObj mems) -> NoDup (alldigs (AObj mems)) -> In m mems -> In g (adigs_mem m) -> IsNode g k v (AObj mems) ->
  match fst (snd m) with
  | MSd _ => exists name salt s, In (name, (MHid salt, s)) mems /\ g = dig_mem salt name s /\ k = Some name /\ v = blind s
  | _ => IsNode g k v (snd (snd m)) end.
Proof.
  intros Hw Hnd Hin Hg Hn. rewrite alldigs_obj in Hnd.
  apply IsNode_obj_inv in Hn as [(name & salt & s & Hin' & Hq & Hk & Hv)|(name & mk & s & Hin' & Hn)].
  - destruct (wf_obj_in H enc _ _ Hw Hin') as [_ (_ & _ & Hsd)]. rewrite <- Hq in Hsd.
    destruct (in_sd_of H enc _ _ Hw Hsd) as (l & sy & Hy & Hgl).
    rewrite (NoDup_flat_map_same adigs_mem mems m _ g Hnd Hin Hy Hg Hgl). exists name, salt, s. auto.
  - destruct (wf_obj_in H enc _ _ Hw Hin') as [Hws Hmok].
    rewrite (NoDup_flat_map_same adigs_mem mems m (name, (mk, s)) g Hnd Hin Hin' Hg).
    + destruct mk; [exact Hn|exact Hn|]. destruct Hmok as (_ & _ & ->). inversion Hn.
    + apply (alldigs_sub_mem H enc _ _ Hmok), (hdigs_alldigs H enc _ Hws), (IsNode_hdigs H enc _ _ _ _ Hn).
Qed.

Lemma conformant_item items it : conformant (AArr items) -> In it items -> conformant (snd it).
Proof.
  intros (Hw & Hnd & Hndh & Hok) Hin. destruct (wf_arr_in H enc _ _ Hw Hin) as [Hws Hiok].
  pose proof (NoDup_flat_map_in adigs_item _ _ Hnd Hin) as Hn1.
  split; [exact Hws|]. split; [|split].
  - exact (NoDup_alldigs_item H enc _ Hiok Hn1).
  - exact (NoDup_hdigs_item H enc _ (NoDup_flat_map_in hdigs_item _ _ Hndh Hin)).
  - intros g r Hg Hr. pose proof (alldigs_sub_item H enc _ Hiok g Hg) as Hga.
    destruct (Hok g r) as (k & v & Hnode & Hq); [rewrite alldigs_arr; apply in_flat_map; eauto|assumption|].
    exists k, v. split; [|assumption].
    destruct (node_at_item _ _ _ _ _ Hw Hnd Hin Hga Hnode) as [(salt & Hk & Hgq)|Hn]; [exfalso|exact Hn].
    (* the digest of a hidden element is not among the digests inside it *)
    destruct it as [ik s]. cbn [fst snd] in *. subst ik g. inversion Hn1; contradiction.
Qed.

Lemma conformant_mem mems m : conformant (AObj mems) -> In m mems -> conformant (snd (snd m)).
Proof.
  intros (Hw & Hnd & Hndh & Hok) Hin. destruct (wf_obj_in H enc _ _ Hw Hin) as [Hws Hmok].
  split; [exact Hws|]. split; [|split].
  - exact (NoDup_alldigs_mem H enc _ _ Hmok (NoDup_flat_map_in adigs_mem _ _ Hnd Hin)).
  - exact (NoDup_hdigs_mem H enc _ (NoDup_flat_map_in hdigs_mem _ _ Hndh Hin)).
  - intros g r Hg Hr. pose proof (alldigs_sub_mem H enc _ _ Hmok g Hg) as Hga.
    destruct (Hok g r) as (k & v & Hnode & Hq); [rewrite alldigs_obj; apply in_flat_map; eauto|assumption|].
    exists k, v. split; [|assumption].
    pose proof (node_at_mem _ _ _ _ _ Hw Hnd Hin Hga Hnode) as Hn.
    destruct m as [name [[|salt|l] s]]; [exact Hn|exact Hn|]. destruct Hmok as (_ & _ & Hs). cbn [snd] in Hg. rewrite Hs in Hg. destruct Hg.
Qed.

Lemma lookup_hidden_item items salt s r :
  conformant (AArr items) -> In (IHid salt, s) items -> rlookup (dig_item salt s) T = Some r -> r = RElement (blind s).
Proof.
  intros (_ & _ & Hndh & Hok) Hin Hl.
  destruct (Hok (dig_item salt s) r) as (k & v & Hnode & ->); [|assumption|].
  { rewrite alldigs_arr. apply in_flat_map. exists (IHid salt, s). split; [assumption|left; reflexivity]. }
  assert (Hhere : IsNode (dig_item salt s) None (blind s) (AArr items)) by (eapply in_item_here; eauto).
  destruct (IsNode_fun H enc _ _ _ _ _ _ Hndh Hnode Hhere) as [-> ->]. reflexivity.
Qed.

Lemma lookup_decoy items g0 s : conformant (AArr items) -> In (IDecoy g0, s) items -> rlookup g0 T = None.
Proof.
  intros (Hw & Hnd & _ & Hok) Hin. destruct (rlookup g0 T) as [r|] eqn:El; [exfalso|reflexivity].
  assert (Hg : In g0 (adigs_item (IDecoy g0, s))) by (left; reflexivity).
  destruct (Hok g0 r) as (k & v & Hnode & _); [rewrite alldigs_arr; apply in_flat_map; eauto|assumption|].
  destruct (node_at_item _ _ _ _ _ Hw Hnd Hin Hg Hnode) as [(salt & Hk & _)|Hn]; [discriminate Hk|].
  destruct (wf_arr_in H enc _ _ Hw Hin) as [_ Hiok]. cbn in Hiok, Hn. subst s. inversion Hn.
Qed.

Lemma lookup_sd_digest mems g r :
  conformant (AObj mems) -> In g (sd_of mems) -> rlookup g T = Some r ->
  exists name salt s, In (name, (MHid salt, s)) mems /\ g = dig_mem salt name s /\ r = RMember name (blind s).
Proof.
  intros (Hw & Hnd & _ & Hok) Hg Hl.
  destruct (Hok g r (sd_of_alldigs H enc mems g Hg) Hl) as (k & v & Hnode & ->).
  destruct (in_sd_of H enc _ _ Hw Hg) as (l & sy & Hy & Hgl).
  destruct (node_at_mem _ _ _ _ _ Hw Hnd Hy Hgl Hnode) as (name & salt & s & Hin & Hq & -> & ->).
  exists name, salt, s. auto.
Qed.

Lemma stepA_blind fuel out u s : wf s ->
  stepA fuel (Some (out, u)) (blind s) =
  match rprocess fuel T (blind s) u with Some (x', u') => Some ((out ++ [x'])%list, u') | None => None end.
Proof. intros Hw. unfold RefProofs.stepA. rewrite (single_placeholder_blind s Hw). reflexivity. Qed.

Lemma stepA_placeholder fuel out u g :
  stepA fuel (Some (out, u)) (placeholder g) =
  match use_digest g u with
  | None => None
  | Some u1 => match rlookup g T with
               | None => Some (out, u1)
               | Some (RMember _ _) => None
               | Some (RElement v) => match rprocess fuel T v u1 with
                                      | Some (v', u2) => Some ((out ++ [v'])%list, u2)
                                      | None => None end
               end
  end.
Proof. reflexivity. Qed.

Lemma rprocess_blind_arr fuel items u :
  rprocess (S fuel) T (blind (AArr items)) u =
  match fold_left (fun acc it => stepA fuel acc (bitem it)) items (Some ([], u)) with
  | Some (out, u') => Some (JArr out, u')
  | None => None end.
Proof. rewrite (blind_arr H enc), rprocess_arr, fold_left_map. reflexivity. Qed.

(* a member's share of the blinded object without its "_sd" entry: what rprocess folds over first *)
Definition plm (m : string * (mkind * atree)) : list (string * json) :=
  let '(name, (k, s)) := m in match k with MPlain => [(name, blind s)] | _ => [] end.

Lemma filter_plain : forall mems : amems, Forall sd_names_ok mems ->
  filter (fun kv : string * json => negb (String.eqb (fst kv) "_sd")) (flat_map bmem mems) = flat_map plm mems.
Proof.
  induction mems as [|[n [k s]] r IH]; intros Hn; [reflexivity|]. apply Forall_cons_iff in Hn as [Hn1 Hn2].
  unfold sd_names_ok in Hn1. cbn [fst snd] in Hn1. cbn [flat_map]. rewrite filter_app, (IH Hn2).
  destruct k as [|salt|l]; cbn [T1b.bmem plm filter fst app]; [|reflexivity|subst n; reflexivity].
  rewrite (proj2 (String.eqb_neq _ _) Hn1). reflexivity.
Qed.

Lemma find_sd_blind : forall mems : amems, Forall sd_names_ok mems -> NoDup (map fst mems) ->
  (sd_of mems = [] /\ find (fun kv : string * json => String.eqb (fst kv) "_sd") (flat_map bmem mems) = None) \/
  (exists sy, In ("_sd", (MSd (sd_of mems), sy)) mems /\
     find (fun kv : string * json => String.eqb (fst kv) "_sd") (flat_map bmem mems) = Some ("_sd", JArr (map JStr (sd_of mems)))).
Proof.
  induction mems as [|[n [k s]] r IH]; intros Hn Hnd; [left; split; reflexivity|].
  apply Forall_cons_iff in Hn as [Hn1 Hn2]. cbn [map fst] in Hnd. apply NoDup_cons_iff in Hnd as [Hni Hnd'].
  unfold sd_names_ok in Hn1. cbn [fst snd] in Hn1. cbn [flat_map].
  destruct k as [|salt|l]; cbn [T1b.bmem app find fst]; [rewrite (proj2 (String.eqb_neq _ _) Hn1)| |].
  (* a plain or hidden member has no part in either *)
  1, 2: change (sd_of (_ :: r)) with (sd_of r); destruct (IH Hn2 Hnd') as [Hnone|(sy & Hin & Hf)];
    [left; exact Hnone|right; exists sy; split; [right; exact Hin|exact Hf]].
  - assert (Hnil : sd_of r = []).
    { destruct (IH Hn2 Hnd') as [[Hnil _]|(sy & Hin & _)]; [exact Hnil|]. subst n. destruct Hni. exact (in_map fst _ _ Hin). }
    subst n. change (sd_of (_ :: r)) with (l ++ sd_of r)%list. rewrite Hnil, app_nil_r.
    right. exists s. split; [left; reflexivity|reflexivity].
Qed.

Lemma NoDup_sd_of mems : wf (AObj mems) -> NoDup (alldigs (AObj mems)) -> NoDup (sd_of mems).
Proof.
  intros Hw Hnd. rewrite alldigs_obj in Hnd.
  destruct (find_sd_blind mems (names_ok_of_wf H enc mems Hw) (ssorted_nodup _ (wf_obj_sorted H enc _ Hw))) as [[-> _]|(sy & Hsd & _)];
    [constructor|exact (NoDup_flat_map_in adigs_mem _ _ Hnd Hsd)].
Qed.

Lemma rprocess_blind_obj fuel mems u : wf (AObj mems) ->
  rprocess (S fuel) T (blind (AObj mems)) u =
  match fold_left (fun acc m => fold_left (stepP fuel) (plm m) acc) mems (Some ([], u)) with
  | None => None
  | Some st => match fold_left (fun acc g => stepD fuel acc (JStr g)) (sd_of mems) (Some st) with
               | Some (out, u') => Some (JObj out, u')
               | None => None end
  end.
Proof.
  intros Hw. pose proof (names_ok_of_wf H enc mems Hw) as Hnames.
  rewrite (blind_obj H enc), rprocess_obj, (filter_plain mems Hnames), fold_left_flat_map.
  destruct (fold_left _ mems _) as [[out u1]|]; [|reflexivity].
  destruct (find_sd_blind mems Hnames (ssorted_nodup _ (wf_obj_sorted H enc _ Hw))) as [[-> ->]|(_ & _ & ->)]; [reflexivity|].
  rewrite fold_left_map. reflexivity.
Qed.

Lemma RT_some g r : rlookup g T = Some r -> RT g = true.
Proof. unfold RT. intros ->. reflexivity. Qed.
Lemma RT_none g : rlookup g T = None -> RT g = false.
Proof. unfold RT. intros ->. reflexivity. Qed.

(* what rprocess needs to get through s *)
Definition ready (s : atree) (fuel : nat) (u : rstate) : Prop :=
  aheight s <= fuel /\ forall g, In g (alldigs s) -> ~ In g u.

Definition outcome (s : atree) (fuel : nat) (u : rstate) (res : option (json * rstate)) : Prop :=
  match res with
  | Some (j, u') => j = proj RT s /\ forall g, In g u' -> In g u \/ In g (alldigs s)
  | None => ~ ready s fuel u
  end.
Definition spec_at (s : atree) : Prop := forall fuel u, outcome s fuel u (rprocess fuel T (blind s) u).

Lemma step_child {X} (mk : json -> rstate -> X) (Q : X -> Prop) (P : Prop) s fuel u :
  spec_at s -> (P -> ready s fuel u) ->
  (forall u', (forall g, In g u' -> In g u \/ In g (alldigs s)) -> Q (mk (proj RT s) u')) ->
  match (match rprocess fuel T (blind s) u with Some (v', u') => Some (mk v' u') | None => None end) with
  | Some x => Q x
  | None => ~ P end.
Proof.
  intros Hs Hr HQ. specialize (Hs fuel u). destruct (rprocess fuel T (blind s) u) as [[v' u']|]; cbn [outcome] in Hs.
  - destruct Hs as [-> Hu']. exact (HQ u' Hu').
  - exact (fun p => Hs (Hr p)).
Qed.

Definition pitem (it : ikind * atree) : list json :=
  let '(k, s) := it in
  match k with
  | IPlain => [proj RT s]
  | IHid salt => if RT (dig_item salt s) then [proj RT s] else []
  | IDecoy _ => [] end.

Lemma stepA_item items it fuel out u :
  conformant (AArr items) -> In it items -> spec_at (snd it) ->
  match stepA fuel (Some (out, u)) (bitem it) with
  | Some (out', u') => out' = (out ++ pitem it)%list /\ forall g, In g u' -> In g u \/ In g (adigs_item it)
  | None => ~ (aheight (snd it) <= fuel /\ forall g, In g (adigs_item it) -> ~ In g u) end.
Proof.
  intros Hc Hin IHs. destruct it as [k s]. cbn [snd] in *.
  destruct k as [|salt|g0]; cbn [T1b.bitem pitem T2c.adigs_item].
  - rewrite (stepA_blind _ _ _ _ (proj1 (wf_arr_in H enc _ _ (proj1 Hc) Hin))).
    apply (step_child _ _ _ s fuel u IHs); [exact (fun HG => HG)|].
    intros u1 Hu1. split; [reflexivity|exact Hu1].
  - rewrite stepA_placeholder. apply step_digest; [exact (fun Hud HG => proj2 HG _ (or_introl eq_refl) Hud)|].
    destruct (rlookup (dig_item salt s) T) as [r|] eqn:El.
    + rewrite (lookup_hidden_item _ _ _ _ Hc Hin El), (RT_some _ _ El).
      apply (step_child _ _ _ s fuel _ IHs).
      * intros [Hh Hf]. split; [exact Hh|]. intros g Hg [Hq|Hgu]; [|exact (Hf g (or_intror Hg) Hgu)].
        (* the element's own digest is not a digest inside it *)
        subst g. destruct Hc as (_ & Hnd & _). rewrite alldigs_arr in Hnd.
        pose proof (NoDup_flat_map_in adigs_item _ _ Hnd Hin) as Hn1. inversion Hn1; contradiction.
      * intros u2 Hu2. split; [reflexivity|]. intros g Hg.
        destruct (Hu2 g Hg) as [[<-|Hgu]|Hgs]; [right; left; reflexivity|left; exact Hgu|right; right; exact Hgs].
    + rewrite (RT_none _ El), app_nil_r. split; [reflexivity|].
      intros g [<-|Hgu]; [right; left; reflexivity|left; exact Hgu].
  - rewrite stepA_placeholder. apply step_digest; [exact (fun Hud HG => proj2 HG _ (or_introl eq_refl) Hud)|].
    rewrite (lookup_decoy _ _ _ Hc Hin), app_nil_r. split; [reflexivity|].
    intros g [<-|Hgu]; [right; left; reflexivity|left; exact Hgu].
Qed.

Section Arr.
Variable items : list (ikind * atree).
Hypothesis Hc : conformant (AArr items).
Hypothesis IH : forall it, In it items -> spec_at (snd it).
Variable fuel : nat.
Variable u0 : rstate.

Lemma foldA_spec :
  match fold_left (fun acc it => stepA fuel acc (bitem it)) items (Some ([], u0)) with
  | Some (out, u) => out = flat_map pitem items /\ forall g, In g u -> In g u0 \/ In g (flat_map adigs_item items)
  | None => ~ ready (AArr items) (S fuel) u0 end.
Proof.
  apply (fold_option_invariant _
           (fun done '(out, u) => out = flat_map pitem done /\ forall g, In g u -> In g u0 \/ In g (flat_map adigs_item done))
           (~ ready (AArr items) (S fuel) u0) items (fun _ => eq_refl)); [|split; [reflexivity|intros g Hg; left; exact Hg]].
  intros done it rest [out u] Hsplit [-> Hu].
  assert (Hin : In it items) by (rewrite Hsplit; apply in_elt).
  pose proof (stepA_item items it fuel (flat_map pitem done) u Hc Hin (IH _ Hin)) as Hst.
  destruct (stepA fuel _ (bitem it)) as [[out' u']|].
  - destruct Hst as [-> Hu']. rewrite !flat_map_app. cbn [flat_map]. rewrite !app_nil_r. split; [reflexivity|].
    intros g Hg. rewrite in_app_iff. destruct (Hu' g Hg) as [Hgu|Hgk]; [|auto]. destruct (Hu g Hgu); auto.
  - intros [Hh H0]. apply Hst. split; [exact (aheight_item_le _ _ _ Hh Hin)|].
    destruct Hc as (_ & Hnd & _). rewrite alldigs_arr in Hnd, H0. rewrite Hsplit in Hnd, H0.
    exact (fresh_next adigs_item done it rest u0 u Hnd H0 Hu).
Qed.
End Arr.

Lemma spec_arr items : conformant (AArr items) -> (forall it, In it items -> spec_at (snd it)) -> spec_at (AArr items).
Proof.
  intros Hc IH fuel u0. destruct fuel as [|fuel]; [intros [Hh _]; rewrite aheight_arr in Hh; lia|].
  rewrite rprocess_blind_arr. pose proof (foldA_spec items Hc IH fuel u0) as HA.
  destruct (fold_left _ items _) as [[out u]|]; [|exact HA]. destruct HA as [-> Hu]. split; [reflexivity|exact Hu].
Qed.

(* the output object while the _sd list is being worked off: R holds the digests that have been looked up *)
Definition shown (R : Rset) (m : string * (mkind * atree)) : list (string * json) :=
  let '(name, (k, s)) := m in
  match k with
  | MPlain => [(name, proj RT s)]
  | MHid salt => if R (dig_mem salt name s) then [(name, proj RT s)] else []
  | MSd _ => [] end.

Lemma shown_key R m kv : In kv (shown R m) -> fst kv = fst m.
Proof.
  destruct m as [name [[|salt|l] s]]; cbn [shown In]; [|destruct (R (dig_mem salt name s)); [|intros []]|intros []].
  all: intros [<-|[]]; reflexivity.
Qed.

Lemma shown_insert (R R' : Rset) mems name salt s :
  StronglySorted slt (map fst mems) -> NoDup (flat_map hdigs_mem mems) -> In (name, (MHid salt, s)) mems ->
  R (dig_mem salt name s) = false -> R' (dig_mem salt name s) = true ->
  (forall g, g <> dig_mem salt name s -> R' g = R g) ->
  has_key name (flat_map (shown R) mems) = false /\
  sorted_insert name (proj RT s) (flat_map (shown R) mems) = flat_map (shown R') mems.
Proof.
  intros Hs Hndh Hin HR HR' Hext. apply in_split in Hin as (pre & post & ->).
  (* no other member has this digest, so the others are shown as before *)
  assert (Hsame : forall m, In m (pre ++ post) -> shown R' m = shown R m).
  { intros [n' [k' s']] Hm. destruct k' as [|salt'|l']; cbn [shown]; try reflexivity. rewrite Hext; [reflexivity|].
    intros Hq. apply (NoDup_flat_map_other hdigs_mem pre _ post _ Hndh (or_introl eq_refl) _ Hm). left. exact Hq. }
  rewrite (flat_map_focus (shown R) (shown R') pre _ post Hsame), flat_map_app. cbn [flat_map shown]. rewrite HR, HR'. cbn [app].
  rewrite map_app in Hs. apply ssorted_split in Hs as [Hlt Hgt].
  apply (keyed_Forall (shown R) (shown_key R) (fun n => slt n name)) in Hlt.
  apply (keyed_Forall (shown R) (shown_key R) (slt name)) in Hgt.
  split; [apply has_key_between; assumption|]. rewrite sorted_insert_obj_insert. apply obj_insert_mid; assumption.
Qed.

(* the hidden members opened so far: those whose digest is among the processed part dn of the _sd list *)
Definition Rdn (dn : list string) : Rset := fun g => existsb (String.eqb g) dn && RT g.

Lemma Rdn_snoc dn g g' : Rdn (dn ++ [g]) g' = Rdn dn g' || (String.eqb g' g && RT g').
Proof. unfold Rdn. rewrite existsb_app. cbn [existsb]. rewrite orb_false_r. apply andb_orb_distrib_l. Qed.

Lemma Rdn_in dn g : In g dn -> Rdn dn g = RT g.
Proof.
  intros Hin. unfold Rdn. replace (existsb (String.eqb g) dn) with true; [reflexivity|].
  symmetry. apply existsb_exists. exists g. split; [exact Hin|apply String.eqb_refl].
Qed.

Lemma Rdn_notin dn g : ~ In g dn -> Rdn dn g = false.
Proof.
  intros Hn. unfold Rdn. replace (existsb (String.eqb g) dn) with false; [reflexivity|].
  symmetry. apply not_true_iff_false. intros Hex. apply existsb_exists in Hex as [x [Hx Hq]].
  apply String.eqb_eq in Hq. subst x. exact (Hn Hx).
Qed.

Lemma shown_unopened dn g mems : RT g = false -> flat_map (shown (Rdn dn)) mems = flat_map (shown (Rdn (dn ++ [g]))) mems.
Proof.
  intros Hg. apply flat_map_ext_in'. intros [n [k s]] _. destruct k as [|salt|l]; cbn [shown]; try reflexivity.
  rewrite Rdn_snoc. destruct (String.eqb_spec (dig_mem salt n s) g) as [->|_]; [rewrite Hg|]; rewrite orb_false_r; reflexivity.
Qed.

Section Obj.
Variable mems : amems.
Hypothesis Hc : conformant (AObj mems).
Hypothesis IH : forall m, In m mems -> spec_at (snd (snd m)).
Variable fuel : nat.
Variable u0 : rstate.

(* Which digests of a member have been used up when the plain members named in pn and the part dn of the _sd list
   have been processed. All the digests the verifier uses up lie in the duplicate-free alldigs (AObj mems), so a
   digest is fresh as soon as it is not a used-up one of the member it belongs to. *)
Definition consumed (pn dn : list string) (m : string * (mkind * atree)) (g : string) : Prop :=
  let '(name, (k, s)) := m in
  match k with MPlain => In name pn | MHid salt => In (dig_mem salt name s) dn | MSd _ => In g dn end.

Definition InvU (pn dn : list string) (u : rstate) : Prop :=
  forall g, In g u -> In g u0 \/ exists m, In m mems /\ In g (adigs_mem m) /\ consumed pn dn m g.

Lemma InvU_fresh pn dn u m g :
  InvU pn dn u -> ready (AObj mems) (S fuel) u0 -> In m mems -> In g (adigs_mem m) -> ~ consumed pn dn m g -> ~ In g u.
Proof.
  intros Hu [_ H0] Hm Hg Hnc Hin. destruct (Hu g Hin) as [Hi|(m' & Hm' & Hg' & Hc')].
  - apply (H0 g); [rewrite alldigs_obj; apply in_flat_map; eauto|exact Hi].
  - destruct Hc as (_ & Hnd & _). rewrite alldigs_obj in Hnd.
    rewrite (NoDup_flat_map_same adigs_mem mems m' m g Hnd Hm' Hm Hg' Hg) in Hc'. contradiction.
Qed.

Lemma InvU_grow pn dn pn' dn' u u' m : InvU pn dn u -> incl pn pn' -> incl dn dn' -> In m mems ->
  (forall g, In g u' -> In g u \/ In g (adigs_mem m) /\ consumed pn' dn' m g) -> InvU pn' dn' u'.
Proof.
  intros Hu Hp Hd Hm Hu' g Hg. destruct (Hu' g Hg) as [Hi|Hnew]; [|right; exists m; split; [exact Hm|exact Hnew]].
  destruct (Hu g Hi) as [H0|([n [k s]] & Hm1 & Hgm & Hcm)]; [left; exact H0|right].
  exists (n, (k, s)). split; [exact Hm1|]. split; [exact Hgm|]. destruct k; cbn in Hcm |- *; auto.
Qed.

Lemma foldP_spec :
  match fold_left (fun acc m => fold_left (stepP fuel) (plm m) acc) mems (Some ([], u0)) with
  | Some (out, u) => out = flat_map (shown R0) mems /\ InvU (map fst mems) [] u
  | None => ~ ready (AObj mems) (S fuel) u0 end.
Proof.
  apply (fold_option_invariant _ (fun pm '(out, u) => out = flat_map (shown R0) pm /\ InvU (map fst pm) [] u)
           (~ ready (AObj mems) (S fuel) u0) mems).
  - intros [n [k s]]. destruct k; reflexivity.
  - intros pm [n [k s]] rest [out u] Hsplit [-> Hu].
    assert (Hin : In (n, (k, s)) mems) by (rewrite Hsplit; apply in_elt).
    pose proof (wf_obj_sorted H enc _ (proj1 Hc)) as Hsrt. rewrite Hsplit in Hsrt.
    rewrite map_app, flat_map_app. cbn [map fst flat_map]. rewrite app_nil_r.
    assert (Hskip : InvU (map fst pm ++ [n]) [] u).
    { exact (InvU_grow _ _ _ _ u u _ Hu (incl_appl _ (incl_refl _)) (incl_refl _) Hin (fun g Hg => or_introl Hg)). }
    destruct k as [|salt|l]; cbn [plm fold_left shown]; [|rewrite app_nil_r; split; [reflexivity|exact Hskip]..].
    unfold RefProofs.stepP. cbn [fst snd]. apply (step_child _ _ _ s fuel u (IH _ Hin)).
    + intros HG. split; [exact (aheight_mem_le H enc _ _ _ (proj1 Hc) (proj1 HG) Hin)|]. intros g Hg.
      apply (InvU_fresh _ _ u (n, (MPlain, s)) g Hu HG Hin Hg). cbn.
      (* its name is not among those before it *)
      apply ssorted_nodup in Hsrt. rewrite map_app in Hsrt. apply NoDup_remove_2 in Hsrt.
      intros Hn. apply Hsrt. apply in_or_app. left. exact Hn.
    + intros u1 Hu1. split.
      * (* the members come in the order of their names: this one goes to the end *)
        rewrite map_app in Hsrt. apply ssorted_split in Hsrt as [Hlt _].
        apply (keyed_Forall (shown R0) (shown_key R0) (fun n' => slt n' n)) in Hlt.
        pose proof (obj_insert_mid _ [] n (proj RT s) Hlt (Forall_nil _)) as Hi. rewrite app_nil_r in Hi.
        rewrite sorted_insert_obj_insert. exact Hi.
      * apply (InvU_grow _ _ _ _ u u1 (n, (MPlain, s)) Hskip (incl_refl _) (incl_refl _) Hin). intros g Hg.
        destruct (Hu1 g Hg) as [Hgu|Hgs]; [left; exact Hgu|right]. split; [exact Hgs|]. apply in_or_app. right. left. reflexivity.
  - split; [reflexivity|]. intros g Hg. left. exact Hg.
Qed.

Lemma stepD_digest pn dn g u :
  In g (sd_of mems) -> ~ In g dn -> InvU pn dn u ->
  match stepD fuel (Some (flat_map (shown (Rdn dn)) mems, u)) (JStr g) with
  | Some (out', u') => out' = flat_map (shown (Rdn (dn ++ [g]))) mems /\ InvU pn (dn ++ [g]) u'
  | None => ~ ready (AObj mems) (S fuel) u0 end.
Proof.
  intros HgL Hgdn Hu. pose proof Hc as (Hw & Hnd & Hndh & _). rewrite alldigs_obj in Hnd. rewrite (hdigs_obj H enc) in Hndh.
  destruct (in_sd_of H enc _ _ Hw HgL) as (l & sy & Hsd & Hgl).
  assert (Hu' : InvU pn (dn ++ [g]) (g :: u)).
  { apply (InvU_grow _ _ _ _ u _ _ Hu (incl_refl _) (incl_appl _ (incl_refl _)) Hsd). intros x [<-|Hx]; [right|left; exact Hx].
    split; [exact Hgl|]. apply in_or_app. right. left. reflexivity. }
  unfold RefProofs.stepD. apply step_digest; [exact (fun Hud HG => InvU_fresh _ _ u _ g Hu HG Hsd Hgl Hgdn Hud)|].
  destruct (rlookup g T) as [r|] eqn:El.
  - destruct (lookup_sd_digest mems g r Hc HgL El) as (name & salt & s & Hm & -> & ->).
    destruct (wf_obj_in H enc _ _ Hw Hm) as [_ (Hdots & Hnsd & _)].
    destruct (shown_insert (Rdn dn) (Rdn (dn ++ [dig_mem salt name s])) mems name salt s (wf_obj_sorted H enc _ Hw) Hndh Hm) as [Hhk Hins].
    { exact (Rdn_notin _ _ Hgdn). }
    { rewrite Rdn_snoc, String.eqb_refl, (RT_some _ _ El). apply orb_true_r. }
    { intros g' Hne. rewrite Rdn_snoc, (proj2 (String.eqb_neq _ _) Hne). apply orb_false_r. }
    cbn beta iota. rewrite (proj2 (String.eqb_neq _ _) Hnsd), (proj2 (String.eqb_neq _ _) Hdots), Hhk. cbn [orb].
    apply (step_child _ _ _ s fuel _ (IH _ Hm)).
    + intros HG. split; [exact (aheight_mem_le H enc _ _ _ Hw (proj1 HG) Hm)|]. intros x Hx [Hq|Hxu].
      * (* the digest of a member is listed under _sd, not inside the member *)
        subst x. discriminate (NoDup_flat_map_same adigs_mem mems ("_sd", (MSd l, sy)) (name, (MHid salt, s)) _ Hnd Hsd Hm Hgl Hx).
      * exact (InvU_fresh _ _ u (name, (MHid salt, s)) x Hu HG Hm Hx Hgdn Hxu).
    + intros u2 Hu2. split; [exact Hins|].
      apply (InvU_grow _ _ _ _ _ u2 (name, (MHid salt, s)) Hu' (incl_refl _) (incl_refl _) Hm). intros x Hx.
      destruct (Hu2 x Hx) as [Hxu|Hxs]; [left; exact Hxu|right]. split; [exact Hxs|]. apply in_or_app. right. left. reflexivity.
  - split; [exact (shown_unopened dn g mems (RT_none _ El))|exact Hu'].
Qed.

Lemma foldD_spec out1 u1 : out1 = flat_map (shown R0) mems -> InvU (map fst mems) [] u1 ->
  match fold_left (fun acc g => stepD fuel acc (JStr g)) (sd_of mems) (Some (out1, u1)) with
  | Some (out, u) => out = flat_map (shown (Rdn (sd_of mems))) mems /\ InvU (map fst mems) (sd_of mems) u
  | None => ~ ready (AObj mems) (S fuel) u0 end.
Proof.
  intros Hout1 Hu1.
  apply (fold_option_invariant _ (fun dn '(out, u) => out = flat_map (shown (Rdn dn)) mems /\ InvU (map fst mems) dn u)
           (~ ready (AObj mems) (S fuel) u0) (sd_of mems) (fun _ => eq_refl)); [|split; [exact Hout1|exact Hu1]].
  intros dn g rest [out u] Hsplit [-> Hu].
  apply (stepD_digest (map fst mems) dn g u); [rewrite Hsplit; apply in_elt| |exact Hu].
  pose proof (NoDup_sd_of mems (proj1 Hc) (proj1 (proj2 Hc))) as Hnl. rewrite Hsplit in Hnl.
  exact (fun Hi => NoDup_remove_2 _ _ _ Hnl (in_or_app _ _ _ (or_introl Hi))).
Qed.
End Obj.

Lemma spec_obj mems :
  conformant (AObj mems) -> (forall m, In m mems -> spec_at (snd (snd m))) -> spec_at (AObj mems).
Proof.
  intros Hc IH fuel u0. destruct fuel as [|fuel]; [intros [Hh _]; rewrite aheight_obj in Hh; lia|].
  rewrite (rprocess_blind_obj _ _ _ (proj1 Hc)).
  pose proof (foldP_spec mems Hc IH fuel u0) as HP.
  destruct (fold_left _ mems _) as [[out1 u1]|]; [|exact HP]. destruct HP as [Hout1 Hu1].
  pose proof (foldD_spec mems Hc IH fuel u0 out1 u1 Hout1 Hu1) as HD.
  destruct (fold_left _ (sd_of mems) _) as [[out u]|]; [|exact HD]. destruct HD as [-> Hu]. split.
  - (* every hidden member is listed under _sd, so all of the list processed means all of them looked up *)
    rewrite (proj_obj H enc). f_equal. apply flat_map_ext_in'. intros [n [k s]] Hm. destruct k as [|salt|l]; try reflexivity.
    destruct (wf_obj_in H enc _ _ (proj1 Hc) Hm) as [_ (_ & _ & Hsd)]. cbn [shown T1m.pmem]. rewrite (Rdn_in _ _ Hsd). reflexivity.
  - intros g Hg. destruct (Hu g Hg) as [Hg0|(m & Hm & Hgm & _)]; [left; exact Hg0|right].
    rewrite alldigs_obj. apply in_flat_map. exists m. split; assumption.
Qed.

Theorem rprocess_spec : forall t, conformant t -> spec_at t.
Proof.
  induction t as [j | items IH | mems IH] using atree_ind_in; intros Hc.
  - intros fuel u. destruct Hc as (Hw & _). inversion Hw as [? Hsc| |]; subst.
    destruct fuel as [|fuel]; [intros [Hh _]; cbn in Hh; lia|].
    cbn [ATree.blind]. destruct j; cbn in Hsc; try destruct Hsc; (split; [reflexivity|intros g Hg; left; exact Hg]).
  - apply (spec_arr items Hc). intros it Hin. exact (IH it Hin (conformant_item _ _ Hc Hin)).
  - apply (spec_obj mems Hc). intros m Hin. exact (IH m Hin (conformant_mem _ _ Hc Hin)).
Qed.
End RP.

Section RV.
Variable H : string -> string.
Variable enc : list json -> string.
Variable dec : string -> option json.
Hypothesis hash_inj : forall x y, H x = H y -> x = y.
Hypothesis dec_enc : forall ps, dec (enc ps) = Some (JArr ps).

(* the table entry rdecode makes of a decoded string *)
Definition rentry (j : option json) : option rdisc :=
  match j with
  | Some (JArr [_; JStr name; v]) => Some (RMember name v)
  | Some (JArr [_; v]) => Some (RElement v)
  | _ => None end.

Lemma rdecode_cons s r :
  rdecode H dec (s :: r) =
  match rdecode H dec r, rentry (dec s) with Some T, Some e => Some ((H s, e) :: T) | _, _ => None end.
Proof.
  unfold rdecode. cbn [fold_right]. destruct (fold_right _ (Some []) r) as [T|]; [|reflexivity].
  destruct (dec s) as [[| | | |[|a [|b [|c [|d xs]]]]|]|]; try reflexivity; destruct b; reflexivity.
Qed.

Lemma rentry_parts salt k v : rentry (Some (JArr (parts_of salt k v))) = Some (rd k v).
Proof. destruct k; [reflexivity|]. destruct v; reflexivity. Qed.

Lemma rdecode_lookup : forall L T, rdecode H dec L = Some T ->
  forall g r, rlookup g T = Some r -> exists s, In s L /\ H s = g /\ rentry (dec s) = Some r.
Proof.
  induction L as [|s0 L IH]; intros T Hd g r Hr; [injection Hd as <-; discriminate Hr|].
  rewrite rdecode_cons in Hd. destruct (rdecode H dec L) as [T0|]; [|discriminate].
  destruct (rentry (dec s0)) as [e|] eqn:Ee; [|discriminate]. injection Hd as <-.
  unfold rlookup in Hr. cbn [find fst] in Hr. destruct (String.eqb_spec (H s0) g) as [Hq|Hne].
  - injection Hr as <-. exists s0. split; [left; reflexivity|]. split; assumption.
  - destruct (IH T0 eq_refl g r Hr) as (s & Hs & Hrest). exists s. split; [right; exact Hs|exact Hrest].
Qed.

Lemma rdecode_RT : forall L T, rdecode H dec L = Some T -> forall g, RT T g = ownS H L g.
Proof.
  induction L as [|s0 L IH]; intros T Hd g; [injection Hd as <-; reflexivity|].
  rewrite rdecode_cons in Hd. destruct (rdecode H dec L) as [T0|]; [|discriminate].
  destruct (rentry (dec s0)) as [e|]; [|discriminate]. injection Hd as <-.
  unfold RT, rlookup, ownS. cbn [find existsb fst]. destruct (String.eqb (H s0) g); [reflexivity|exact (IH T0 eq_refl g)].
Qed.

Lemma ref_verify_decoded payload L T : rdecode H dec L = Some T ->
  ref_verify H dec payload L = match rprocess 200 T payload [] with Some (j, _) => Some (drop_alg j) | None => None end.
Proof. intros Ed. unfold ref_verify. rewrite Ed. destruct (rprocess 200 T payload []) as [[[] u]|]; reflexivity. Qed.

Variable t : atree.
Hypothesis Hwf : wf H enc t.
Hypothesis Hnd : NoDup (alldigs H enc t).
Hypothesis Hndh : NoDup (hdigs H enc t).

Lemma proj_ext R R' : (forall g, R g = R' g) -> proj H enc R t = proj H enc R' t.
Proof. intros Hx. rewrite <- !(strip_view H enc _ t Hwf). f_equal. apply view_ext. intros g _. apply Hx. Qed.

Lemma rdecode_facts L T :
  (forall s, In s L -> In (H s) (alldigs H enc t) -> In (H s) (hdigs H enc t)) ->
  rdecode H dec L = Some T ->
  (forall g, RT T g = ownS H L g) /\ table_ok H enc T t.
Proof.
  intros Hdecoy Ed. split; [exact (rdecode_RT L T Ed)|].
  intros g r Hg Hl. destruct (rdecode_lookup L T Ed g r Hl) as (s & Hs & Hq & He).
  assert (Hh : In g (hdigs H enc t)) by (rewrite <- Hq; apply Hdecoy; [assumption|rewrite Hq; assumption]).
  destruct (hdigs_node H enc g t Hh) as (salt & k & v & Hnode & Hgq).
  exists k, v. split; [assumption|].
  (* s hashes to the digest of the node, so it is the encoding of the node's disclosure *)
  rewrite (hash_inj s (enc (parts_of salt k v))), dec_enc, rentry_parts in He by congruence.
  injection He as <-. reflexivity.
Qed.

Lemma rprocess_presented L T fuel :
  (forall s, In s L -> In (H s) (alldigs H enc t) -> In (H s) (hdigs H enc t)) ->
  rdecode H dec L = Some T ->
  match rprocess fuel T (blind H enc t) [] with
  | Some (j, _) => j = proj H enc (ownS H L) t
  | None => ~ aheight t <= fuel end.
Proof.
  intros Hdecoy Ed. destruct (rdecode_facts L T Hdecoy Ed) as [HRT Hok].
  pose proof (rprocess_spec H enc T t (conj Hwf (conj Hnd (conj Hndh Hok))) fuel []) as Hs.
  destruct (rprocess fuel T (blind H enc t) []) as [[j u]|]; cbn [outcome] in Hs.
  - rewrite (proj_ext _ _ HRT) in Hs. exact (proj1 Hs).
  - intros Hh. apply Hs. split; [exact Hh|intros g _ []].
Qed.

(* C07 / C08: whenever the specification's algorithm accepts a list of presented strings for the payload of a
   conformant token, its result is the projection determined by the presented set - the same value the
   library model's restorer returns (C03Proofs) *)
Theorem ref_verify_sound L j :
  (forall s, In s L -> In (H s) (alldigs H enc t) -> In (H s) (hdigs H enc t)) ->
  ref_verify H dec (blind H enc t) L = Some j -> j = drop_alg (proj H enc (ownS H L) t).
Proof.
  intros Hdecoy Hv. destruct (rdecode H dec L) as [T|] eqn:Ed; [|unfold ref_verify in Hv; rewrite Ed in Hv; discriminate].
  rewrite (ref_verify_decoded _ _ _ Ed) in Hv. pose proof (rprocess_presented L T 200 Hdecoy Ed) as Hp.
  destruct (rprocess 200 T (blind H enc t) []) as [[j' u]|]; [|discriminate]. injection Hv as <-. rewrite Hp. reflexivity.
Qed.

(* and it accepts every list of strings that decode as disclosures (own ones in any order and any subset, foreign
   ones), none hashing to a decoy, on a token of height at most 200: the fuel ref_verify gives rprocess, of which
   nothing else is used; the library's limit of 129 (C03Proofs) lies below it *)
Theorem ref_verify_complete L T :
  (forall s, In s L -> In (H s) (alldigs H enc t) -> In (H s) (hdigs H enc t)) ->
  rdecode H dec L = Some T -> aheight t <= 200 ->
  ref_verify H dec (blind H enc t) L = Some (drop_alg (proj H enc (ownS H L) t)).
Proof.
  intros Hdecoy Ed Hh. rewrite (ref_verify_decoded _ _ _ Ed). pose proof (rprocess_presented L T 200 Hdecoy Ed) as Hp.
  destruct (rprocess 200 T (blind H enc t) []) as [[j' u]|]; [rewrite Hp; reflexivity|contradiction].
Qed.
End RV.
