(* Plain claims as an annotated tree with nothing hidden. *)
From Coq Require Import List String Ascii Bool Arith Lia Sorting.Sorted.
Import ListNotations.
Require Import SDJ.Json SDJ.ATree SDJ.T2b SDJ.T2c SDJ.T2h.
Local Open Scope string_scope.

(* well-formed claims: keys strictly sorted (BTreeMap), no reserved names anywhere *)
Inductive jwf : json -> Prop :=
| jwf_null : jwf JNull
| jwf_bool b : jwf (JBool b)
| jwf_num l : jwf (JNum l)
| jwf_str s : jwf (JStr s)
| jwf_arr xs : Forall jwf xs -> jwf (JArr xs)
| jwf_obj kvs : StronglySorted slt (map fst kvs) ->
                Forall (fun kv => fst kv <> "_sd" /\ fst kv <> "..." /\ jwf (snd kv)) kvs -> jwf (JObj kvs).

Lemma jwf_ind' (P : json -> Prop) :
  P JNull -> (forall b, P (JBool b)) -> (forall l, P (JNum l)) -> (forall s, P (JStr s)) ->
  (forall xs, Forall (fun x => jwf x /\ P x) xs -> P (JArr xs)) ->
  (forall kvs, StronglySorted slt (map fst kvs) -> Forall (fun kv => jwf (snd kv) /\ P (snd kv)) kvs -> P (JObj kvs)) ->
  forall j, jwf j -> P j.
Proof.
  intros Hnull Hbool Hnum Hstr Harr Hobj.
  induction j as [| b | l | s | xs IH | kvs IH] using json_ind'; intros Hw; auto.
  - inversion Hw as [| | | | ? Hall |]; subst. apply Harr.
    rewrite Forall_forall in *. intros x Hin. split; [|apply IH]; auto.
  - inversion Hw as [| | | | | ? Hs Hall]; subst. apply Hobj; [exact Hs|].
    rewrite Forall_forall in *. intros kv Hin. destruct (Hall kv Hin) as (_ & _ & Hj). split; [|apply IH]; auto.
Qed.

Fixpoint embed (j : json) : atree :=
  match j with
  | JArr xs => AArr (map (fun x => (IPlain, embed x)) xs)
  | JObj kvs => AObj (map (fun kv => let '(k, v) := kv in (k, (MPlain, embed v))) kvs)
  | _ => ALeaf j
  end.

Lemma flat_map_map_one {A B} (F : B -> list A) (G : A -> B) l :
  Forall (fun x => F (G x) = [x]) l -> flat_map F (map G l) = l.
Proof. induction 1 as [|x r Hx _ IH]; cbn; [reflexivity|]. rewrite Hx, IH. reflexivity. Qed.

Lemma flat_map_map_nil {A B C} (F : B -> list C) (G : A -> B) l :
  Forall (fun x => F (G x) = []) l -> flat_map F (map G l) = [].
Proof. induction 1 as [|x r Hx _ IH]; cbn; [reflexivity|]. rewrite Hx, IH. reflexivity. Qed.

Section T1e.
Variable H : string -> string.
Variable enc : list json -> string.
Notation blind := (blind H enc).
Notation wf := (wf H enc).
Notation hdigs := (hdigs H enc).
Notation alldigs := (alldigs H enc).

Lemma blind_embed : forall j, blind (embed j) = j.
Proof.
  induction j as [| | | | xs IH | kvs IH] using json_ind'; try reflexivity; cbn [embed ATree.blind]; f_equal.
  - rewrite map_map. rewrite <- (map_id xs) at 2. apply map_ext_Forall. exact IH.
  - apply flat_map_map_one. revert IH. apply Forall_impl. intros [k v] Hv. cbn in Hv |- *. rewrite Hv. reflexivity.
Qed.

Lemma hdigs_embed : forall j, hdigs (embed j) = [].
Proof.
  induction j as [| | | | xs IH | kvs IH] using json_ind'; try reflexivity; cbn [embed ATree.hdigs]; apply flat_map_map_nil.
  - exact IH.
  - revert IH. apply Forall_impl. intros [k v] Hv. exact Hv.
Qed.

Lemma alldigs_embed : forall j, alldigs (embed j) = [].
Proof.
  induction j as [| | | | xs IH | kvs IH] using json_ind'; try reflexivity; cbn [embed T2c.alldigs]; apply flat_map_map_nil.
  - exact IH.
  - revert IH. apply Forall_impl. intros [k v] Hv. exact Hv.
Qed.

Lemma proj_embed R : forall j, proj H enc R (embed j) = j.
Proof.
  induction j as [| | | | xs IH | kvs IH] using json_ind'; try reflexivity; cbn [embed T2h.proj]; f_equal;
    apply flat_map_map_one; revert IH; apply Forall_impl.
  - intros x Hx. cbn. rewrite Hx. reflexivity.
  - intros [k v] Hv. cbn in Hv |- *. rewrite Hv. reflexivity.
Qed.

Lemma wf_embed : forall j, jwf j -> wf (embed j).
Proof.
  induction j as [| | | | xs IH | kvs IH] using json_ind'; intros Hj; try (constructor; exact I).
  - inversion Hj as [| | | | ? Hall |]; subst. cbn [embed]. rewrite Forall_forall in IH, Hall.
    constructor; apply Forall_map, Forall_forall; intros x Hx; [exact (IH _ Hx (Hall _ Hx))|exact I].
  - inversion Hj as [| | | | | ? Hs Hall]; subst. cbn [embed]. rewrite Forall_forall in IH, Hall. constructor.
    + rewrite map_map. erewrite map_ext; [exact Hs|]. intros [k v]. reflexivity.
    + apply Forall_map, Forall_forall. intros [k v] Hin. apply (IH _ Hin). apply (Hall _ Hin).
    + apply Forall_map, Forall_forall. intros [k v] Hin. specialize (Hall _ Hin). cbn in Hall |- *. tauto.
Qed.
End T1e.
