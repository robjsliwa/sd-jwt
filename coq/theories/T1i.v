(* The node just marked is a hidden node of the result, and the claims with everything opened stay the same. *)
From Coq Require Import List String Ascii Bool Arith Lia Sorting.Sorted Permutation.
Import ListNotations.
Require Import SDJ.Json SDJ.Model2 SDJ.ATree SDJ.T2c SDJ.T2h SDJ.T2k SDJ.Issuer1 SDJ.T1a SDJ.T1b SDJ.T1f SDJ.T1h.
Local Open Scope string_scope.

Section T1i.
Variable H : string -> string.
Variable enc : list json -> string.
Variable parse_index : string -> option nat.
Variable parse_usize : string -> option nat.
Variable pos : string -> nat.
Notation add_sd := (T1a.add_sd pos).
Notation blind := (blind H enc).
Notation wf := (wf H enc).
Notation IsNode := (IsNode H enc).
Notation mark := (mark H enc parse_index parse_usize pos).
Notation target := (target parse_index parse_usize).
Notation mk_disc := (mk_disc H enc).
Notation proj := (proj H enc).

Theorem mark_IsNode_new key salt : forall toks t t' k s,
  mark toks key salt t = Some t' -> target toks key t = Some (k, s) ->
  IsNode (d_digest (mk_disc salt k (blind s))) k (blind s) t'.
Proof.
  intros toks t t' k u Hm Ht. pose proof (mark_marks_target Hm Ht) as HM. clear Hm Ht.
  induction HM as [pre s post Hi | pre s post Hni | tok rest pre s s' post k u Hi HM IH | tok rest pre s s' post k u Hni HM IH].
  - eapply in_item_here; [apply in_elt|reflexivity..].
  - apply IsNode_add_sd. eapply in_mem_here; [apply in_elt|reflexivity..].
  - eapply in_item_in; [apply in_elt|exact IH].
  - eapply in_mem_in; [apply in_elt|exact IH].
Qed.

Lemma proj_add_sd g mems : proj Rall (AObj (add_sd g mems)) = proj Rall (AObj mems).
Proof. cbn [T2h.proj]. f_equal. apply add_sd_flat_map_same; reflexivity. Qed.

Theorem mark_orig key salt : forall toks t t', wf t -> mark toks key salt t = Some t' -> proj Rall t' = proj Rall t.
Proof.
  intros toks t t' _ Hm. destruct (mark_marks Hm) as (k & u & _ & HM). clear Hm.
  induction HM as [pre s post Hi | pre s post Hni | tok rest pre s s' post k u Hi HM IH | tok rest pre s s' post k u Hni HM IH].
  - cbn [T2h.proj]. rewrite !flat_map_app. reflexivity.
  - rewrite proj_add_sd. cbn [T2h.proj]. rewrite !flat_map_app. reflexivity.
  - cbn [T2h.proj]. rewrite !flat_map_app. cbn [flat_map]. rewrite IH. reflexivity.
  - cbn [T2h.proj]. rewrite !flat_map_app. cbn [flat_map]. rewrite IH. reflexivity.
Qed.
End T1i.
