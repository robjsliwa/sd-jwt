(* The issuer's fold over the paths, for any hash, encoding and token parsers: one marking step per path on the annotated
   tree (issue_fold_spec), and restoring its result with all its disclosures gives back the claims. *)
From Coq Require Import List String Ascii Bool Arith Lia Sorting.Sorted Permutation.
Import ListNotations.
Require Import SDJ.Json SDJ.Model2 SDJ.ATree SDJ.T2c SDJ.T2d SDJ.T2e SDJ.T2h SDJ.T2k SDJ.T2m SDJ.T2p SDJ.Issuer1 SDJ.T1a SDJ.T1d SDJ.T1e SDJ.T1f SDJ.T1g SDJ.T1h SDJ.T1i SDJ.Restore2.
Local Open Scope string_scope.

Lemma Forall2_In_l {A B} (R : A -> B -> Prop) l l' x : Forall2 R l l' -> In x l -> exists y, In y l' /\ R x y.
Proof.
  induction 1 as [|a b l l' Hab _ IH]; intros Hin; [destruct Hin|]. destruct Hin as [<-|Hin].
  - exists b. split; [left; reflexivity|exact Hab].
  - destruct (IH Hin) as (y & Hy & Hxy). exists y. split; [right; exact Hy|exact Hxy].
Qed.

(* Disclosures built from salts, for any hash and encoding: the string encodes an array that starts with the
   salt and the digest is the hash of the string, so distinct salts give distinct strings and digests. *)
Section Made.
Variable H : string -> string.
Variable enc : list json -> string.
Hypothesis enc_inj : forall a b, enc a = enc b -> a = b.
Hypothesis hash_inj : forall a b, H a = H b -> a = b.

Lemma mk_disc_salt d salt : d = Issuer1.mk_disc H enc salt (d_key d) (d_val d) ->
  exists rest, d_str d = enc (salt :: rest) /\ d_digest d = H (d_str d).
Proof. intros ->. unfold Issuer1.mk_disc. cbn. destruct (d_key d); eexists; split; reflexivity. Qed.

Theorem mk_disc_digests_distinct : forall ds salts,
  Forall2 (fun d salt => d = Issuer1.mk_disc H enc salt (d_key d) (d_val d)) ds salts -> NoDup salts -> NoDup (map d_digest ds).
Proof.
  induction 1 as [|d s ds ss Hm HF IH]; intros Hnd; cbn; [constructor|].
  inversion Hnd as [|? ? Hni Hnd']; subst. constructor; [|auto].
  intros Hin. apply in_map_iff in Hin as [d' [Hq Hd']].
  destruct (Forall2_In_l _ _ _ _ HF Hd') as (s' & Hs' & Hm').
  destruct (mk_disc_salt _ _ Hm) as (r1 & Hs1 & Hg1). destruct (mk_disc_salt _ _ Hm') as (r2 & Hs2 & Hg2).
  rewrite Hg1, Hg2 in Hq. apply hash_inj in Hq. rewrite Hs1, Hs2 in Hq. apply enc_inj in Hq. injection Hq as -> _.
  contradiction.
Qed.
End Made.

Lemma mk_disc_decodes (H : string -> string) (enc : list json -> string) (dec : string -> dec_result) salt key v :
  (forall ps, dec (enc ps) = DJson (JArr ps)) ->
  (match key with Some k => reserved k = false | None => True end) ->
  from_base64 H dec (d_str (Issuer1.mk_disc H enc salt key v)) = Ok (Issuer1.mk_disc H enc salt key v).
Proof.
  intros Hde Hk. unfold from_base64, Issuer1.mk_disc. cbn [d_str]. rewrite Hde. destruct key as [k|]; cbn.
  - rewrite Hk. reflexivity.
  - reflexivity.
Qed.

Section T1j.
Variable H : string -> string.
Variable enc : list json -> string.
Variable dec : string -> dec_result.
Variable show_nat : nat -> string.
Variable parse_index : string -> option nat.
Variable parse_usize : string -> option nat.
Variable pos : string -> nat.
Hypothesis hash_inj : forall x y, H x = H y -> x = y.
Hypothesis dec_enc : forall ps, dec (enc ps) = DJson (JArr ps).

Notation blind := (blind H enc).
Notation view := (view H enc).
Notation wf := (wf H enc).
Notation hdigs := (hdigs H enc).
Notation alldigs := (alldigs H enc).
Notation IsNode := (IsNode H enc).
Notation mark := (mark H enc parse_index parse_usize pos).
Notation mk_disc := (mk_disc H enc).
Notation build_disclosure := (build_disclosure H enc parse_index parse_usize pos).
Notation proj := (proj H enc).

Definition path := (list string * string)%type.   (* parent tokens, last token *)

(* Issuer::encode, the disclosure-building fold (decoys, shuffles, _sd_alg are post-processing) *)
Fixpoint issue_fold (claims : json) (paths : list path) (salts : list json) : res (json * list disc) :=
  match paths, salts with
  | [], _ => Ok (claims, [])
  | (toks, key) :: ps, salt :: ss =>
      do (c1, d) <- build_disclosure claims toks key salt;
      do (c2, ds) <- issue_fold c1 ps ss;
      Ok (c2, d :: ds)
  | _ :: _, [] => Err
  end.

Fixpoint mark_fold (t : atree) (paths : list path) (salts : list json) : option atree :=
  match paths, salts with
  | [], _ => Some t
  | (toks, key) :: ps, salt :: ss =>
      match mark toks key salt t with Some t1 => mark_fold t1 ps ss | None => None end
  | _ :: _, [] => None
  end.

Definition made_with (d : disc) (salt : json) : Prop := d = mk_disc salt (d_key d) (d_val d).

Lemma perm_cons_app {A} (l' l1 l ds : list A) g :
  Permutation l' (ds ++ l1) -> Permutation l1 (g :: l) -> Permutation l' ((g :: ds) ++ l).
Proof. intros H1 H2. rewrite H1, H2. symmetry. apply Permutation_middle. Qed.

(* Everything later files need of the fold, by one induction: the fold on the claims is mark_fold on the tree, and
   each invariant of one marking step (T1d, T1f - T1i) carried along the path list. *)
Theorem issue_fold_spec : forall paths salts t t',
  wf t -> mark_fold t paths salts = Some t' ->
  exists ds, issue_fold (blind t) paths salts = Ok (blind t', ds) /\ wf t' /\
    Permutation (hdigs t') (map d_digest ds ++ hdigs t) /\
    Permutation (alldigs t') (map d_digest ds ++ alldigs t) /\
    Forall (fun d => IsNode (d_digest d) (d_key d) (d_val d) t') ds /\
    (forall g k v, IsNode g k v t -> IsNode g k v t') /\
    proj Rall t' = proj Rall t /\
    Forall2 made_with ds (firstn (List.length paths) salts).
Proof.
  induction paths as [|[toks key] ps IH]; intros salts t t' Hw Hm.
  - cbn in Hm. injection Hm as <-. exists []. cbn. repeat split; auto.
  - destruct salts as [|salt ss]; [discriminate|]. cbn [mark_fold] in Hm.
    destruct (mark toks key salt t) as [t1|] eqn:Em; [|discriminate].
    destruct (build_disclosure_mark H enc parse_index parse_usize pos key salt toks t t1 Hw Em) as (k & s & Ht & Hb).
    pose proof (mark_wf H enc parse_index parse_usize pos key salt toks t t1 Hw Em) as Hw1.
    destruct (mark_digs H enc parse_index parse_usize pos key salt toks t t1 k s Hw Em Ht) as [Hp1 Hp2].
    pose proof (mark_IsNode_new H enc parse_index parse_usize pos key salt toks t t1 k s Em Ht) as Hnew.
    destruct (IH ss t1 t' Hw1 Hm) as (ds & Hf & Hw' & Hq1 & Hq2 & Hnodes & Hpres & Hproj & Hmade).
    exists (mk_disc salt k (blind s) :: ds). cbn [issue_fold]. rewrite Hb. cbn [bind]. rewrite Hf. cbn [bind].
    split; [reflexivity|]. split; [assumption|].
    split; [exact (perm_cons_app _ _ _ _ _ Hq1 Hp1)|]. split; [exact (perm_cons_app _ _ _ _ _ Hq2 Hp2)|].
    split; [constructor; [apply Hpres; exact Hnew|assumption]|].
    split; [intros g k0 v Hn; apply Hpres; exact (mark_IsNode_old H enc parse_index parse_usize pos g k0 v key salt toks t t1 Hw Em Hn)|].
    split; [rewrite Hproj; exact (mark_orig H enc parse_index parse_usize pos key salt toks t t1 Hw Em)|].
    cbn [List.length firstn]. constructor; [|assumption]. unfold made_with. destruct k; reflexivity.
Qed.

Lemma NoDup_firstn' {A} n (l : list A) : NoDup l -> NoDup (firstn n l).
Proof. intros Hnd. rewrite <- (firstn_skipn n l) in Hnd. exact (proj1 (proj1 (NoDup_app_iff _ _) Hnd)). Qed.

Lemma fold_of_claims C paths salts t' :
  jwf C -> mark_fold (embed C) paths salts = Some t' ->
  exists ds, issue_fold C paths salts = Ok (blind t', ds) /\ wf t' /\ proj Rall t' = C /\
    Permutation (hdigs t') (map d_digest ds) /\ Permutation (alldigs t') (map d_digest ds) /\
    Forall2 made_with ds (firstn (List.length paths) salts) /\
    Forall (fun d => forall name, d_key d = Some name -> reserved name = false) ds.
Proof.
  intros HC Hm.
  destruct (issue_fold_spec paths salts (embed C) t' (wf_embed H enc C HC) Hm)
    as (ds & Hf & Hw' & Hq1 & Hq2 & Hnodes & _ & Hproj & Hmade).
  rewrite (blind_embed H enc) in Hf. rewrite (hdigs_embed H enc), app_nil_r in Hq1. rewrite (alldigs_embed H enc), app_nil_r in Hq2.
  rewrite proj_embed in Hproj.
  exists ds. do 6 (split; [assumption|]).
  eapply Forall_impl; [|exact Hnodes]. intros d Hn name Hk. cbv beta in Hn. rewrite Hk in Hn. exact (IsNode_name_ok H enc _ _ _ _ Hw' Hn).
Qed.

Lemma made_digests_distinct ds salts : Forall2 made_with ds salts -> NoDup salts -> NoDup (map d_digest ds).
Proof.
  apply (mk_disc_digests_distinct H enc); [|exact hash_inj].
  intros a b Hq. pose proof (dec_enc a) as Ha. rewrite Hq, dec_enc in Ha. congruence.
Qed.

(* Restoring with exactly the disclosures of the hidden nodes, each made from a salt of its own, opens everything;
   the holder side of the entry-point theorems (T1p.holder_stage) applies this to the tree that is signed. *)
Theorem restore_all_made t ds salts :
  wf t -> NoDup (alldigs t) -> aheight t <= 129 ->
  Forall2 made_with ds salts -> NoDup salts ->
  Forall (fun d => forall name, d_key d = Some name -> reserved name = false) ds ->
  Permutation (hdigs t) (map d_digest ds) ->
  exists ps, restore_disclosures H dec show_nat (blind t) (map d_str ds) = Ok (view Rall t, ps) /\
    Permutation (map snd ps) ds /\
    Forall (fun pd : dpath => NodePath H enc show_nat (d_digest (snd pd)) t (fst pd)) ps.
Proof.
  intros Hw Hnda Hh Hmade Hnds Hnames Hhd.
  assert (Heach : forall d, In d ds -> d_digest d = H (d_str d) /\ from_base64 H dec (d_str d) = Ok d).
  { intros d Hd. destruct (Forall2_In_l _ _ _ _ Hmade Hd) as (salt & _ & Hmw). unfold made_with in Hmw.
    rewrite Forall_forall in Hnames. specialize (Hnames d Hd). rewrite Hmw. split; [reflexivity|].
    apply mk_disc_decodes; [exact dec_enc|]. destruct (d_key d); [apply Hnames; reflexivity|exact I]. }
  assert (Hdig : map d_digest ds = map H (map d_str ds)).
  { rewrite map_map. apply map_ext_in. intros d Hd. apply Heach. exact Hd. }
  pose proof (made_digests_distinct ds salts Hmade Hnds) as Hndd.
  assert (HndL : NoDup (map d_str ds)) by (rewrite Hdig in Hndd; exact (NoDup_map_inv _ _ Hndd)).
  assert (Hndh : NoDup (hdigs t)) by (eapply Permutation_NoDup; [symmetry; exact Hhd|exact Hndd]).
  assert (Hhid : forall d, In d ds -> In (d_digest d) (hdigs t)).
  { intros d Hd. eapply Permutation_in; [symmetry; exact Hhd|]. apply in_map. exact Hd. }
  destruct (restore_full_all_paths H enc dec show_nat hash_inj dec_enc t Hw Hnda Hndh Hh (map d_str ds) ds HndL) as (ps & Hps & Hrest).
  - intros s Hs _. apply in_map_iff in Hs as [d [<- Hd]]. rewrite <- (proj1 (Heach d Hd)). exact (Hhid d Hd).
  - apply decode_all_strs. intros d Hd. apply Heach. exact Hd.
  - intros g Hg. eapply Permutation_in; [exact Hhd|exact Hg].
  - exact Hhid.
  - exists ps. split; [|exact Hrest]. rewrite Hps. f_equal. f_equal.
    (* every hidden digest is the hash of one of the strings: everything is opened *)
    apply view_ext. intros g Hg. unfold Rall, ownS. apply existsb_exists.
    assert (Hgd : In g (map d_digest ds)) by (eapply Permutation_in; [exact Hhd|exact Hg]).
    apply in_map_iff in Hgd as [d [<- Hd]]. exists (d_str d). split; [apply in_map; exact Hd|].
    rewrite (proj1 (Heach d Hd)). apply String.eqb_refl.
Qed.

(* C01, claims part: what the issuer produces, restored with all disclosures, is the original *)
Theorem issue_restore_roundtrip_full C paths salts t' :
  jwf C -> NoDup salts -> mark_fold (embed C) paths salts = Some t' -> aheight t' <= 129 ->
  exists payload ds claims ps,
    issue_fold C paths salts = Ok (payload, ds) /\
    restore_disclosures H dec show_nat payload (map d_str ds) = Ok (claims, ps) /\
    strip claims = C.
Proof.
  intros HC Hnds Hm Hh.
  destruct (fold_of_claims C paths salts t' HC Hm) as (ds & Hf & Hw' & Hproj & Hq1 & Hq2 & Hmade & Hnames).
  pose proof (NoDup_firstn' (List.length paths) salts Hnds) as Hnds'.
  assert (Hnda : NoDup (alldigs t')).
  { eapply Permutation_NoDup; [symmetry; exact Hq2|]. exact (made_digests_distinct ds _ Hmade Hnds'). }
  destruct (restore_all_made t' ds _ Hw' Hnda Hh Hmade Hnds' Hnames Hq1) as (ps & Hps & _).
  exists (blind t'), ds, (view Rall t'), ps. split; [exact Hf|]. split; [exact Hps|].
  rewrite (strip_view H enc Rall t' Hw'). exact Hproj.
Qed.

Lemma restore_disclosures_passes claims L r :
  restore_disclosures H dec show_nat claims L = Ok r -> restore_passes H dec show_nat claims L = Ok r.
Proof.
  unfold restore_disclosures. destruct (restore_passes H dec show_nat claims L) as [[c ps]|]; [|discriminate]. cbn [bind].
  destruct (insert_all _ _); [|discriminate]. cbn [bind]. destruct (check_digests _ _ _); [|discriminate]. exact (fun Hq => Hq).
Qed.

(* the same for restore_passes alone, without the duplicate and structure checks that follow the passes *)
Theorem issue_restore_roundtrip C paths salts t' :
  jwf C -> NoDup salts -> mark_fold (embed C) paths salts = Some t' -> aheight t' <= 129 ->
  exists payload ds claims ps,
    issue_fold C paths salts = Ok (payload, ds) /\
    restore_passes H dec show_nat payload (map d_str ds) = Ok (claims, ps) /\
    strip claims = C.
Proof.
  intros HC Hnds Hm Hh.
  destruct (issue_restore_roundtrip_full C paths salts t' HC Hnds Hm Hh) as (payload & ds & claims & ps & Hf & Hr & Hs).
  exists payload, ds, claims, ps. split; [exact Hf|]. split; [exact (restore_disclosures_passes _ _ _ Hr)|exact Hs].
Qed.
Print Assumptions issue_restore_roundtrip.
End T1j.
