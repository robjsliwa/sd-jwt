(* string-level facts about path rendering and parsing: escaping, splitting, decimal indices *)
From Coq Require Import List String Ascii Bool Arith NArith Lia.
Import ListNotations.
Require Import SDJ.Json SDJ.Wire SDJ.Split SDJ.Issuer2 SDJ.DecStr SDJ.T1r SDJ.T1s SDJ.T1e.
Local Open Scope string_scope.

Lemma replace2_skip a b by_ c r : Ascii.eqb c a = false -> replace2 a b by_ (String c r) = String c (replace2 a b by_ r).
Proof. intros Hc. cbn [replace2]. destruct r as [|d r']; [reflexivity|]. rewrite Hc. reflexivity. Qed.

Lemma replace2_hit a b by_ r : replace2 a b by_ (String a (String b r)) = String by_ (replace2 a b by_ r).
Proof. cbn [replace2]. rewrite !Ascii.eqb_refl. reflexivity. Qed.

Lemma replace2_near a b by_ d r : Ascii.eqb d b = false -> replace2 a b by_ (String a (String d r)) = String a (replace2 a b by_ (String d r)).
Proof. intros Hd. cbn [replace2]. rewrite Ascii.eqb_refl, Hd. reflexivity. Qed.

(* esc_tok s after the first pass of unescape ("~1" -> "/"): '~' -> "~0", everything else unchanged *)
Fixpoint esc0 (s : string) : string :=
  match s with
  | EmptyString => EmptyString
  | String c r => if Ascii.eqb c "~"%char then String "~"%char (String "0"%char (esc0 r)) else String c (esc0 r)
  end.

Lemma unescape_pass1 s : replace2 "~"%char "1"%char "/"%char (esc_tok s) = esc0 s.
Proof.
  induction s as [|c r IH]; [reflexivity|]. cbn [esc_tok esc0].
  destruct (Ascii.eqb c "~"%char) eqn:E1.
  - rewrite replace2_near by reflexivity. rewrite replace2_skip by reflexivity. rewrite IH. reflexivity.
  - destruct (Ascii.eqb c "/"%char) eqn:E2.
    + rewrite replace2_hit. rewrite IH. apply Ascii.eqb_eq in E2. subst c. reflexivity.
    + rewrite replace2_skip by assumption. rewrite IH. reflexivity.
Qed.

Lemma unescape_pass2 s : replace2 "~"%char "0"%char "~"%char (esc0 s) = s.
Proof.
  induction s as [|c r IH]; [reflexivity|]. cbn [esc0].
  destruct (Ascii.eqb c "~"%char) eqn:E1.
  - rewrite replace2_hit, IH. apply Ascii.eqb_eq in E1. subst c. reflexivity.
  - rewrite replace2_skip by assumption. rewrite IH. reflexivity.
Qed.

Theorem unescape_esc s : unescape (esc_tok s) = s.
Proof. unfold unescape. rewrite unescape_pass1. apply unescape_pass2. Qed.

Corollary esc_tok_inj a b : esc_tok a = esc_tok b -> a = b.
Proof. intros Hq. rewrite <- (unescape_esc a), <- (unescape_esc b), Hq. reflexivity. Qed.

Lemma esc_tok_no_slash s : contains slash (esc_tok s) = false.
Proof.
  induction s as [|c r IH]; [reflexivity|]. cbn [esc_tok].
  destruct (Ascii.eqb c "~"%char) eqn:E1; [cbn; exact IH|].
  destruct (Ascii.eqb c "/"%char) eqn:E2; [cbn; exact IH|].
  cbn [contains]. unfold slash. rewrite E2. exact IH.
Qed.

Lemma esc_tok_digits s : all_digits s = true -> esc_tok s = s.
Proof.
  induction s as [|c r IH]; [reflexivity|]. rewrite all_digits_cons. intros Ha. apply andb_true_iff in Ha as [Hc Hr].
  cbn [esc_tok].
  destruct (Ascii.eqb_spec c "~"%char) as [->|_]; [discriminate Hc|].
  destruct (Ascii.eqb_spec c "/"%char) as [->|_]; [discriminate Hc|].
  rewrite (IH Hr). reflexivity.
Qed.

Definition tokstr (t : step) : string := match t with SKey k => k | SIdx i => Wire.show_nat i end.
Definition etok (t : step) : string := esc_tok (tokstr t).
Notation render := (T1s.render Wire.show_nat).

Lemma render_cons t r : render (t :: r) = ("/" ++ etok t ++ render r)%string.
Proof. destruct t; reflexivity. Qed.

Lemma append_assoc_p (a b c : string) : ((a ++ b) ++ c = a ++ (b ++ c))%string.
Proof. exact (append_assoc_ a b c). Qed.

Lemma split_render_from : forall a s, contains slash s = false -> split_on slash (s ++ render a) = s :: map etok a.
Proof.
  induction a as [|t r IH]; intros s Hs.
  - cbn [T1s.render map]. rewrite append_nil_r. apply split_no_sep. exact Hs.
  - rewrite render_cons. change ("/" ++ etok t ++ render r)%string with (String slash (etok t ++ render r)).
    rewrite (split_app_sep _ _ _ Hs), (IH (etok t) (esc_tok_no_slash _)). reflexivity.
Qed.

Lemma split_render : forall a, split_on slash (render a) = "" :: map etok a.
Proof. intros a. apply (split_render_from a ""). reflexivity. Qed.

Lemma rev_cons_last {A} (x : A) l : l <> [] -> exists l' y, x :: l = (l' ++ [y])%list /\ rev (x :: l) = y :: rev l'.
Proof.
  intros Hl. destruct (exists_last Hl) as (l0 & y & ->). exists (x :: l0), y. split; [reflexivity|].
  cbn [rev]. rewrite rev_app_distr. reflexivity.
Qed.

Definition unreserved (a : addr) : Prop := Forall (fun t => match t with SKey k => k <> "_sd" /\ k <> "..." | SIdx _ => True end) a.

Lemma show_nat_digits i : all_digits (Wire.show_nat i) = true.
Proof. apply dec_of_N_digits. Qed.

(* a rendered index is a digit string, so neither "_sd" nor "..." *)
Lemma etok_reserved t : etok t = "_sd" \/ etok t = "..." -> match t with SKey k => k = "_sd" \/ k = "..." | SIdx _ => False end.
Proof.
  destruct t as [k|i].
  - (* escaping is injective and leaves the two reserved names as they are *)
    intros [Hq|Hq]; [left|right]; apply esc_tok_inj; exact Hq.
  - unfold etok. cbn [tokstr]. pose proof (show_nat_digits i) as Hd. rewrite (esc_tok_digits _ Hd).
    intros [Hq|Hq]; rewrite Hq in Hd; discriminate Hd.
Qed.

Lemma etok_not_reserved t : (match t with SKey k => k <> "_sd" /\ k <> "..." | SIdx _ => True end) ->
  (String.eqb (etok t) "_sd" || String.eqb (etok t) "...") = false.
Proof.
  intros Ht. apply not_true_is_false. intros E. apply orb_true_iff in E. rewrite !String.eqb_eq in E.
  apply etok_reserved in E. destruct t; tauto.
Qed.

Lemma reserved_render a : unreserved a -> reserved_token (render a) = false.
Proof.
  intros Hu. unfold reserved_token. rewrite split_render. cbn [existsb]. cbn [String.eqb orb].
  induction Hu as [|t r Ht _ IH]; [reflexivity|]. cbn [map existsb]. rewrite (etok_not_reserved t Ht). exact IH.
Qed.

Lemma split_path_tokens s toks key :
  split_on slash s = "" :: (toks ++ [key])%list -> split_path s = Some (map unescape toks, unescape key).
Proof.
  intros Hs. unfold split_path. rewrite Hs, app_comm_cons, rev_unit, rev_involutive. cbn [rev].
  destruct (rev toks); reflexivity.
Qed.

Theorem parse_path_render (a : addr) (t : step) : unreserved (a ++ [t])%list ->
  parse_path (render (a ++ [t])%list) = Some (map tokstr a, tokstr t).
Proof.
  intros Hu. unfold parse_path. rewrite (reserved_render _ Hu).
  rewrite (split_path_tokens _ (map etok a) (etok t)) by (rewrite split_render, map_app; reflexivity).
  unfold etok. rewrite map_map, unescape_esc. do 2 f_equal. apply map_ext. intros x. apply unescape_esc.
Qed.

Fixpoint jat (a : addr) (j : json) : Prop :=
  match a with
  | [] => True
  | SKey k :: r => match j with JObj kvs => match obj_get k kvs with Some v => jat r v | None => False end | _ => False end
  | SIdx i :: r => match j with JArr xs => match nth_error xs i with Some v => jat r v | None => False end | _ => False end
  end.

Definition small (a : addr) : Prop := Forall (fun t => match t with SIdx i => (N.of_nat i <= usize_max)%N | SKey _ => True end) a.

Lemma parse_usize_show_nat i : (N.of_nat i <= usize_max)%N -> parse_usize (Wire.show_nat i) = Some i.
Proof. intros Hi. unfold Wire.show_nat. rewrite (parse_usize_show _ Hi). rewrite Nat2N.id. reflexivity. Qed.
Lemma parse_index_show_nat i : (N.of_nat i <= usize_max)%N -> parse_index (Wire.show_nat i) = Some i.
Proof. intros Hi. unfold Wire.show_nat. rewrite (parse_index_show _ Hi). rewrite Nat2N.id. reflexivity. Qed.

Theorem jresolve_render : forall (a : addr) (t : step) (C : json),
  jat (a ++ [t])%list C -> small (a ++ [t])%list ->
  jresolve parse_index parse_usize (map tokstr a) (tokstr t) C = Some (a ++ [t])%list.
Proof.
  induction a as [|s a IH]; intros t C Hat Hs.
  - cbn [app map jresolve]. destruct t as [k|i]; cbn [jat app] in Hat; cbn [tokstr].
    + destruct C as [| | | | |kvs]; try contradiction. destruct (obj_get k kvs); [reflexivity|contradiction].
    + destruct C as [| | | |xs|]; try contradiction. inversion Hs as [|? ? Hi _]; subst.
      rewrite (parse_usize_show_nat i Hi). destruct (nth_error xs i); [reflexivity|contradiction].
  - cbn [app map jresolve]. inversion Hs as [|? ? Hi Hs']; subst. destruct s as [k|i]; cbn [jat app] in Hat; cbn [tokstr].
    + destruct C as [| | | | |kvs]; try contradiction. destruct (obj_get k kvs) as [v|]; [|contradiction].
      rewrite (IH t v Hat Hs'). reflexivity.
    + destruct C as [| | | |xs|]; try contradiction. rewrite (parse_index_show_nat i Hi).
      destruct (nth_error xs i) as [v|]; [|contradiction]. rewrite (IH t v Hat Hs'). reflexivity.
Qed.

Lemma jat_unreserved : forall a C, jwf C -> jat a C -> unreserved a.
Proof.
  induction a as [|s a IH]; intros C Hw Hat; [constructor|]. destruct s as [k|i]; cbn [jat] in Hat.
  - destruct C as [| | | | |kvs]; try contradiction. destruct (obj_get k kvs) as [v|] eqn:Eg; [|contradiction].
    inversion Hw as [| | | | |? _ Hk]; subst. apply T2a.obj_get_in in Eg. rewrite Forall_forall in Hk. destruct (Hk _ Eg) as (H1 & H2 & H3). cbn [fst snd] in *.
    constructor; [split; assumption|]. exact (IH v H3 Hat).
  - destruct C as [| | | |xs|]; try contradiction. destruct (nth_error xs i) as [v|] eqn:En; [|contradiction].
    inversion Hw as [| | | |? Hx|]; subst. apply nth_error_In in En. rewrite Forall_forall in Hx.
    constructor; [exact I|]. exact (IH v (Hx _ En) Hat).
Qed.

(* the issuer, given the rendered address of an existing node, resolves exactly that node *)
Corollary render_resolves (a : addr) (t : step) (C : json) :
  jwf C -> jat (a ++ [t])%list C -> small (a ++ [t])%list ->
  exists toks key, parse_path (render (a ++ [t])%list) = Some (toks, key) /\
                   jresolve parse_index parse_usize toks key C = Some (a ++ [t])%list.
Proof.
  intros Hw Hat Hs. exists (map tokstr a), (tokstr t). split.
  - apply parse_path_render. exact (jat_unreserved _ C Hw Hat).
  - apply jresolve_render; assumption.
Qed.
