(* Lists with one entry singled out (l1 ++ x :: l2) under map and flat_map; NoDup of an append and of a flat_map. *)
From Coq Require Import List.
Import ListNotations.

Lemma in_mid {A} (y x : A) l1 l2 : In y (l1 ++ l2) -> In y (l1 ++ x :: l2).
Proof. rewrite !in_app_iff. cbn. tauto. Qed.

Lemma map_focus {A B} (f f' : A -> B) l1 x l2 :
  (forall y, In y (l1 ++ l2) -> f' y = f y) -> map f' (l1 ++ x :: l2) = map f l1 ++ f' x :: map f l2.
Proof.
  intros Hf. rewrite map_app. cbn [map].
  f_equal; [|f_equal]; apply map_ext_in; intros y Hy; apply Hf, in_or_app; [left|right]; assumption.
Qed.

Lemma flat_map_ext_in' {A B} (f g : A -> list B) l : (forall x, In x l -> f x = g x) -> flat_map f l = flat_map g l.
Proof.
  induction l as [|x r IH]; cbn; intros Hx; [reflexivity|]. rewrite Hx by (left; reflexivity).
  f_equal. apply IH. intros; apply Hx; right; assumption.
Qed.

Lemma flat_map_focus {A B} (f f' : A -> list B) l1 x l2 :
  (forall y, In y (l1 ++ l2) -> f' y = f y) -> flat_map f' (l1 ++ x :: l2) = flat_map f l1 ++ f' x ++ flat_map f l2.
Proof.
  intros Hf. rewrite flat_map_app. cbn [flat_map].
  f_equal; [|f_equal]; apply flat_map_ext_in'; intros y Hy; apply Hf, in_or_app; [left|right]; assumption.
Qed.

Lemma map_flat_map {A B C} (f : B -> C) (g : A -> list B) l : map f (flat_map g l) = flat_map (fun x => map f (g x)) l.
Proof. induction l as [|x r IH]; cbn; [reflexivity|]. rewrite map_app, IH. reflexivity. Qed.

Lemma flat_map_map' {A B C} (f : B -> list C) (g : A -> B) l : flat_map f (map g l) = flat_map (fun x => f (g x)) l.
Proof. induction l; cbn; congruence. Qed.
Lemma flat_map_flat_map {A B C} (f : B -> list C) (g : A -> list B) l :
  flat_map f (flat_map g l) = flat_map (fun x => flat_map f (g x)) l.
Proof. induction l as [|x r IH]; cbn; [reflexivity|]. rewrite flat_map_app, IH. reflexivity. Qed.

Lemma NoDup_app_iff {A} (a b : list A) : NoDup (a ++ b) <-> NoDup a /\ NoDup b /\ (forall g, In g a -> ~ In g b).
Proof.
  induction a as [|x r IH]; cbn.
  - split; [intros Hb; repeat split; [constructor|assumption|intros g []]|tauto].
  - rewrite !NoDup_cons_iff, IH, in_app_iff. split.
    + intros (Hx & Hr & Hb & Hd). repeat split; try tauto. intros g [<-|Hg]; [tauto|auto].
    + intros ((Hx & Hr) & Hb & Hd). repeat split; try tauto.
      * intros [Hxr|Hxb]; [tauto|]. apply (Hd x); auto.
      * intros g Hg. apply Hd. auto.
Qed.

Lemma NoDup_app_disj {A} (a b : list A) g : NoDup (a ++ b) -> In g a -> ~ In g b.
Proof. intros Hnd. apply NoDup_app_iff in Hnd. apply Hnd. Qed.
Lemma NoDup_app_l {A} (a b : list A) : NoDup (a ++ b) -> NoDup a.
Proof. intros Hnd. apply NoDup_app_iff in Hnd. apply Hnd. Qed.
Lemma NoDup_app_r {A} (a b : list A) : NoDup (a ++ b) -> NoDup b.
Proof. intros Hnd. apply NoDup_app_iff in Hnd. apply Hnd. Qed.
Lemma NoDup_app_intro {A} (a b : list A) : NoDup a -> NoDup b -> (forall g, In g a -> In g b -> False) -> NoDup (a ++ b).
Proof. intros Ha Hb Hd. apply NoDup_app_iff. auto. Qed.

Lemma NoDup_flat_map_other {A B} (f : A -> list B) l1 x l2 g :
  NoDup (flat_map f (l1 ++ x :: l2)) -> In g (f x) -> forall y, In y (l1 ++ l2) -> ~ In g (f y).
Proof.
  intros Hnd Hg y Hy Hgy. rewrite flat_map_app in Hnd. cbn [flat_map] in Hnd.
  apply in_app_or in Hy as [Hy|Hy].
  - apply (NoDup_app_disj _ _ g Hnd).
    + apply in_flat_map. exists y. split; assumption.
    + apply in_or_app. left. assumption.
  - apply NoDup_app_r in Hnd. apply (NoDup_app_disj _ _ g Hnd Hg). apply in_flat_map. exists y. split; assumption.
Qed.
Lemma NoDup_flat_map_in {A B} (f : A -> list B) l x : NoDup (flat_map f l) -> In x l -> NoDup (f x).
Proof.
  intros Hnd Hin. apply in_split in Hin as (l1 & l2 & ->). rewrite flat_map_app in Hnd. cbn [flat_map] in Hnd.
  apply NoDup_app_r in Hnd. apply NoDup_app_l in Hnd. assumption.
Qed.
Lemma NoDup_flat_map_same {A B} (f : A -> list B) l x y g :
  NoDup (flat_map f l) -> In x l -> In y l -> In g (f x) -> In g (f y) -> x = y.
Proof.
  intros Hnd Hx Hy Hgx Hgy. destruct (in_split _ _ Hx) as (l1 & l2 & ->).
  apply in_elt_inv in Hy as [Hy|Hy]; [symmetry; assumption|].
  exfalso. exact (NoDup_flat_map_other f l1 x l2 g Hnd Hgx y Hy Hgy).
Qed.

Lemma Forall_but_one {A B} (f : A -> list B) (P Q : A -> Prop) l x g :
  NoDup (flat_map f l) -> In x l -> In g (f x) ->
  (forall y, In y l -> ~ In g (f y) -> P y -> Q y) -> (P x -> Q x) -> Forall P l -> Forall Q l.
Proof.
  intros Hnd Hx Hg Hoth Hqx HP. destruct (in_split _ _ Hx) as (l1 & l2 & ->).
  rewrite Forall_forall in *. intros y Hy. apply in_elt_inv in Hy as [<-|Hy]; [exact (Hqx (HP _ Hx))|].
  apply Hoth; [apply in_mid, Hy|exact (NoDup_flat_map_other f l1 x l2 g Hnd Hg y Hy)|apply HP, in_mid, Hy].
Qed.

Lemma NoDup_fst_fun {A B} (l : list (A * B)) a b b' : NoDup (map fst l) -> In (a, b) l -> In (a, b') l -> b = b'.
Proof.
  induction l as [|[a0 b0] r IH]; cbn; intros Hnd H1 H2; [destruct H1|]. apply NoDup_cons_iff in Hnd as [Hni Hnd].
  destruct H1 as [[= -> ->]|H1], H2 as [[= <-]|H2]; [reflexivity| | |auto].
  - destruct Hni. exact (in_map fst _ _ H2).
  - destruct Hni. exact (in_map fst _ _ H1).
Qed.

Lemma NoDup_map_filter {A B} (f : A -> B) (p : A -> bool) l : NoDup (map f l) -> NoDup (map f (filter p l)).
Proof.
  induction l as [|x r IH]; cbn; intros Hnd; [constructor|]. inversion Hnd as [|? ? Hni Hr]; subst.
  destruct (p x); cbn; [|auto]. constructor; [|auto].
  intros Hin. apply Hni. apply in_map_iff in Hin as [y [Hq Hy]]. apply filter_In in Hy as [Hy _]. apply in_map_iff. eauto.
Qed.
