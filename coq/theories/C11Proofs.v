(* C11: a builder step changes only the setting it names; every setting reaches the decoder; validate and crate::decode
   accept exactly when every configured constraint holds. *)
From Coq Require Import List String Bool NArith Lia.
Import ListNotations.
Require Import SDJ.Json SDJ.Wire SDJ.Out SDJ.Jwt.
Local Open Scope string_scope.

Inductive field := FRequired | FLeeway | FExp | FAud | FIss | FSub | FAlg.

Definition named (s : bstep) : field :=
  match s with
  | SWithoutExpiry => FExp | SWithAudience _ => FAud | SWithIssuer _ => FIss | SWithSubject _ => FSub
  | SWithLeeway _ => FLeeway | SWithAlgorithm _ => FAlg | SWithRequiredClaim _ => FRequired end.

(* each builder step changes only the setting it names *)
Theorem step_frame v s :
  (named s <> FRequired -> v_required (step v s) = v_required v) /\
  (named s <> FLeeway -> v_leeway (step v s) = v_leeway v) /\
  (named s <> FExp -> v_exp (step v s) = v_exp v) /\
  v_nbf (step v s) = v_nbf v /\
  v_validate_aud (step v s) = v_validate_aud v /\
  (named s <> FAud -> v_aud (step v s) = v_aud v) /\
  (named s <> FIss -> v_iss (step v s) = v_iss v) /\
  (named s <> FSub -> v_sub (step v s) = v_sub v) /\
  (named s <> FAlg -> v_alg (step v s) = v_alg v).
Proof. destruct s; cbn; repeat split; intros; congruence. Qed.

Lemma sset_mem_insert x c l : sset_mem x (sset_insert c l) = String.eqb x c || sset_mem x l.
Proof.
  unfold sset_mem. induction l as [|y r IH]; cbn [sset_insert existsb]; [reflexivity|].
  destruct (String.compare c y) eqn:Ec; cbn [existsb].
  - apply String.compare_eq_iff in Ec. subst. destruct (String.eqb x y); reflexivity.
  - reflexivity.
  - rewrite IH. destruct (String.eqb x y), (String.eqb x c); reflexivity.
Qed.

(* ... and sets that setting to its argument *)
Theorem step_sets v s :
  match s with
  | SWithoutExpiry => v_exp (step v s) = false
  | SWithAudience a => v_aud (step v s) = Some [a]
  | SWithIssuer i => v_iss (step v s) = Some i
  | SWithSubject x => v_sub (step v s) = Some x
  | SWithLeeway n => v_leeway (step v s) = n
  | SWithAlgorithm a => v_alg (step v s) = a
  | SWithRequiredClaim c => exists l, v_required (step v s) = Some l /\
        forall x, sset_mem x l = String.eqb x c || match v_required v with Some l0 => sset_mem x l0 | None => false end
  end.
Proof.
  destruct s; cbn [step set_exp set_aud set_iss set_sub set_leeway set_alg set_required v_exp v_aud v_iss v_sub v_leeway v_alg v_required]; try reflexivity.
  destruct (v_required v) as [l0|]; eexists; (split; [reflexivity|]); intros x.
  - apply sset_mem_insert.
  - unfold sset_mem. cbn. reflexivity.
Qed.

Theorem step_commute v a b : named a <> named b -> step (step v a) b = step (step v b) a.
Proof. destruct a, b; cbn; intros Hn; try reflexivity; congruence. Qed.

(* the finding behind repair F7: the pinned without_expiry does not satisfy the frame condition *)
Theorem step_pinned_refuted : exists v, v_alg (step_pinned v SWithoutExpiry) <> v_alg v.
Proof. exists (validation_new HS256). cbn. discriminate. Qed.

(* every setting reaches the option of the same meaning *)
Theorem build_validation_forwards v :
  jo_algs (build_validation v) = [v_alg v] /\ jo_leeway (build_validation v) = v_leeway v /\
  jo_exp (build_validation v) = v_exp v /\ jo_nbf (build_validation v) = v_nbf v /\
  jo_auds (build_validation v) = v_aud v /\ jo_iss (build_validation v) = v_iss v /\
  jo_sub (build_validation v) = v_sub v /\ jo_required (build_validation v) = v_required v.
Proof. repeat split. Qed.

(* enforcement: validate accepts exactly when every configured constraint holds *)
Definition exp_holds (claims : list (string * json)) (o : jwt_options) (now : N) : Prop :=
  jo_exp o = true -> exists t, obj_get "exp" claims = Some t /\ exists n, as_u64 t = Some n /\ (now <= n + jo_leeway o)%N.
Definition nbf_holds (claims : list (string * json)) (o : jwt_options) (now : N) : Prop :=
  jo_nbf o = true -> exists t, obj_get "nbf" claims = Some t /\ exists n, as_u64 t = Some n /\ (n - jo_leeway o <= now)%N.
Definition str_holds (claims : list (string * json)) (name : string) (e : option string) : Prop :=
  forall x, e = Some x -> obj_get name claims = Some (JStr x).
Definition aud_holds (claims : list (string * json)) (e : option (list string)) : Prop :=
  forall es, e = Some es ->
    (exists a, obj_get "aud" claims = Some (JStr a) /\ sset_mem a es = true) \/
    (exists xs, obj_get "aud" claims = Some (JArr xs) /\ exists a, In (JStr a) xs /\ sset_mem a es = true).
Definition required_holds (claims : list (string * json)) (r : option (list string)) : Prop :=
  forall rs, r = Some rs -> forall c, In c rs -> obj_get c claims <> None.

Lemma optional_check_iff {A} (e : option A) (check : A -> out unit) (P : A -> Prop) :
  (forall x, check x = Val tt <-> P x) ->
  (match e with Some x => check x | None => Val tt end = Val tt <-> forall x, e = Some x -> P x).
Proof.
  intros Hc. destruct e as [x|]; [|split; [discriminate|reflexivity]].
  rewrite Hc. split; [intros HP y [= <-]; exact HP|intros HP; apply HP; reflexivity].
Qed.

Lemma validate_str_iff claims name e : validate_str claims name e = Val tt <-> str_holds claims name e.
Proof.
  apply optional_check_iff. intros x. split.
  - destruct (obj_get name claims) as [[| | |a| |]|]; try discriminate.
    destruct (String.eqb_spec a x) as [->|]; [reflexivity|discriminate].
  - intros ->. rewrite String.eqb_refl. reflexivity.
Qed.

Lemma validate_aud_iff claims e : validate_aud claims e = Val tt <-> aud_holds claims e.
Proof.
  apply optional_check_iff. intros es. split.
  - destruct (obj_get "aud" claims) as [[| | |a|xs|]|]; try discriminate.
    + destruct (sset_mem a es) eqn:Em; [|discriminate]. left. eauto.
    + destruct (existsb _ xs) eqn:Ex; [|discriminate]. right.
      apply existsb_exists in Ex as [x [Hin Hx]]. destruct x; try discriminate. eauto 6.
  - intros [(a & -> & Hm)|(xs & -> & a & Hin & Hm)].
    + rewrite Hm. reflexivity.
    + replace (existsb _ xs) with true; [reflexivity|]. symmetry. apply existsb_exists. exists (JStr a). split; assumption.
Qed.

Lemma validate_required_iff claims r : validate_required claims r = Val tt <-> required_holds claims r.
Proof.
  apply optional_check_iff. intros rs. split.
  - destruct (forallb _ rs) eqn:Ef; [|discriminate]. intros _ c Hc.
    rewrite forallb_forall in Ef. specialize (Ef c Hc). destruct (obj_get c claims); discriminate.
  - intros Hh. replace (forallb _ rs) with true; [reflexivity|]. symmetry. apply forallb_forall. intros c Hc.
    specialize (Hh c Hc). destruct (obj_get c claims); [reflexivity|congruence].
Qed.

(* the two time checks have one shape: if switched on, the claim must be there, be a u64, and pass a test on a limit
   computed with checked arithmetic. When that arithmetic does not overflow (otherwise the dependency panics: known
   finding KF-1) the check succeeds exactly when the test does. *)
Lemma time_check_iff (on : bool) name claims (lim : N -> out N) (ok : N -> bool) (P : N -> Prop) :
  (forall t n, obj_get name claims = Some t -> as_u64 t = Some n -> exists l, lim n = Val l /\ (ok l = true <-> P n)) ->
  (if on then match obj_get name claims with
              | Some v => match as_u64 v with
                          | Some t => dO l <- lim t; if ok l then Val tt else Fail
                          | None => Fail end
              | None => Fail end
   else Val tt) = Val tt <->
  (on = true -> exists t, obj_get name claims = Some t /\ exists n, as_u64 t = Some n /\ P n).
Proof.
  intros Hlim. destruct on; [|split; [discriminate|reflexivity]]. split.
  - intros Hv _. destruct (obj_get name claims) as [t|]; [|discriminate]. destruct (as_u64 t) as [n|] eqn:En; [|discriminate].
    destruct (Hlim t n eq_refl En) as (l & Hl & Hok). rewrite Hl in Hv. cbn [obind] in Hv.
    exists t. split; [reflexivity|]. exists n. split; [exact En|]. apply Hok. destruct (ok l); [reflexivity|discriminate].
  - intros Hh. destruct (Hh eq_refl) as (t & Ht & n & Hn & HP).
    destruct (Hlim t n Ht Hn) as (l & Hl & Hok). rewrite Ht, Hn, Hl. cbn [obind]. rewrite (proj2 Hok HP). reflexivity.
Qed.

Lemma validate_exp_iff claims o now :
  (forall t n, obj_get "exp" claims = Some t -> as_u64 t = Some n -> (n + jo_leeway o <= u64_max)%N) ->
  (validate_exp claims o now = Val tt <-> exp_holds claims o now).
Proof.
  intros Hno. apply (time_check_iff (jo_exp o) "exp" claims _ _ (fun n => (now <= n + jo_leeway o)%N)).
  intros t n Ht Hn. unfold uadd. rewrite (proj2 (N.leb_le _ _) (Hno t n Ht Hn)). eexists. split; [reflexivity|apply N.leb_le].
Qed.

Lemma validate_nbf_iff claims o now :
  (forall t n, obj_get "nbf" claims = Some t -> as_u64 t = Some n -> (jo_leeway o <= n)%N) ->
  (validate_nbf claims o now = Val tt <-> nbf_holds claims o now).
Proof.
  intros Hno. apply (time_check_iff (jo_nbf o) "nbf" claims _ _ (fun n => (n - jo_leeway o <= now)%N)).
  intros t n Ht Hn. unfold usubN. rewrite (proj2 (N.leb_le _ _) (Hno t n Ht Hn)). eexists. split; [reflexivity|apply N.leb_le].
Qed.

Lemma check_then_iff (x y : out unit) (P Q : Prop) :
  (x = Val tt <-> P) -> (y = Val tt <-> Q) -> (obind x (fun _ => y) = Val tt <-> P /\ Q).
Proof.
  intros Hx Hy. rewrite <- Hx, <- Hy. destruct x as [[]| |]; cbn [obind]; split; try discriminate.
  - auto.
  - intros [_ H]; exact H.
  - intros [H _]; discriminate.
  - intros [H _]; discriminate.
Qed.

Theorem validate_iff claims o now :
  (forall t n, obj_get "exp" claims = Some t -> as_u64 t = Some n -> (n + jo_leeway o <= u64_max)%N) ->
  (forall t n, obj_get "nbf" claims = Some t -> as_u64 t = Some n -> (jo_leeway o <= n)%N) ->
  (validate claims o now = Val tt <->
   exp_holds claims o now /\ nbf_holds claims o now /\ str_holds claims "iss" (jo_iss o) /\
   str_holds claims "sub" (jo_sub o) /\ aud_holds claims (jo_auds o) /\ required_holds claims (jo_required o)).
Proof.
  intros H1 H2. unfold validate.
  apply check_then_iff; [apply validate_exp_iff, H1|].
  apply check_then_iff; [apply validate_nbf_iff, H2|].
  apply check_then_iff; [apply validate_str_iff|].
  apply check_then_iff; [apply validate_str_iff|].
  apply check_then_iff; [apply validate_aud_iff|].
  apply validate_required_iff.
Qed.

(* crate::decode accepts exactly what the policy's algorithm, the key family, the signature oracle and
   validate accept *)
Theorem decode_model_iff W token v hdr payload :
  decode_model W token v = Val (hdr, payload) <->
  jw_parse W token = Some (hdr, payload) /\
  exists a claims, jalg_of_name (jstr_or_empty_ (jget "alg" hdr)) = Some a /\ jalg_eqb a (v_alg v) = true /\
    family_ok (jw_family W) a = true /\ jw_sig_ok W token a = true /\ payload = JObj claims /\
    validate claims (build_validation v) (jw_now W) = Val tt.
Proof.
  unfold decode_model, jwt_decode. cbn [build_validation jo_algs existsb]. split.
  - destruct (jw_parse W token) as [[h p]|]; [|discriminate].
    destruct (jalg_of_name _) as [a|] eqn:Ea; [|discriminate]. rewrite orb_false_r.
    destruct (jalg_eqb a (v_alg v)) eqn:Eq; cbn [negb]; [|discriminate].
    destruct (family_ok (jw_family W) a) eqn:Ef; cbn [negb]; [|discriminate].
    destruct (jw_sig_ok W token a) eqn:Es; cbn [negb]; [|discriminate].
    destruct p as [| | | | |claims]; try discriminate.
    destruct (validate claims _ (jw_now W)) as [[]| |] eqn:Ev; cbn [obind]; try discriminate.
    intros [= <- <-]. split; [reflexivity|]. exists a, claims. repeat split; assumption.
  - intros (Hp & a & claims & Ha & Hq & Hf & Hs & -> & Hv).
    rewrite Hp, Ha, Hq, Hf, Hs. cbn [orb negb]. rewrite Hv. reflexivity.
Qed.
