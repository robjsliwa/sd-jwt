(* C13 structure: who consumes which random draw in Issuer::encode. *)
From Coq Require Import List String Ascii Bool Arith ZArith Lia.
Import ListNotations.
Require Import SDJ.Json SDJ.Model2 SDJ.T1j SDJ.Issuer1 SDJ.Issuer2.
Local Open Scope string_scope.

Section S.
Variable E : issue_env.

(* T1j.made_with at the hash and encoding of E *)
Definition made_with (d : disc) (salt : json) : Prop := d = mk_disc E salt (d_key d) (d_val d).

Lemma disclose_here_made key salt j j' d : disclose_here E key salt j = Ok (j', d) -> made_with d salt.
Proof.
  unfold disclose_here, made_with, mk_disc. destruct j; cbn; try discriminate.
  - destruct (parse_usize key); [|discriminate]. destruct (nth_error xs n); [|discriminate].
    destruct (has_dots _); [discriminate|]. intros H. injection H as _ <-. reflexivity.
  - destruct (obj_get key kvs); [|discriminate]. destruct (_ || _); [discriminate|].
    destruct (obj_get "_sd" (obj_remove key kvs)) as [[]|]; try discriminate; intros H; injection H as _ <-; reflexivity.
Qed.

Lemma update_at_result {A} (P : A -> Prop) (f : json -> res (json * A)) :
  (forall j j' a, f j = Ok (j', a) -> P a) -> forall toks j j' a, update_at toks f j = Ok (j', a) -> P a.
Proof.
  intros Hf. unfold update_at. induction toks as [|tok rest IH]; intros j j' a Hu; cbn in Hu; [eauto|].
  destruct j; try discriminate.
  - destruct (parse_index tok); [|discriminate]. destruct (nth_error xs n) as [v|]; [|discriminate].
    destruct (Issuer1.update_at parse_index rest f v) as [[v' a']|] eqn:Eu; cbn in Hu; [|discriminate]. injection Hu as _ <-. eauto.
  - destruct (obj_get tok kvs) as [v|]; [|discriminate].
    destruct (Issuer1.update_at parse_index rest f v) as [[v' a']|] eqn:Eu; cbn in Hu; [|discriminate]. injection Hu as _ <-. eauto.
Qed.

Lemma build_disclosure_made c p salt c' d : build_disclosure E c p salt = Ok (c', d) -> made_with d salt.
Proof.
  unfold build_disclosure. destruct (parse_path p) as [[toks key]|]; [|discriminate].
  apply (update_at_result (fun d => made_with d salt)). intros; eapply disclose_here_made; eauto.
Qed.

Lemma issue_fold_inv (P : json -> Prop) (Q : disc -> json -> Prop) :
  (forall c p s c' d, P c -> build_disclosure E c p s = Ok (c', d) -> P c' /\ Q d s) ->
  forall paths salts c c' ds, P c -> issue_fold E c paths salts = Ok (c', ds) ->
    P c' /\ Forall2 Q ds (firstn (List.length paths) salts) /\ List.length ds = List.length paths.
Proof.
  intros Hstep. induction paths as [|p ps IH]; intros salts c c' ds Hc Hf; cbn in Hf.
  - injection Hf as <- <-. repeat constructor. exact Hc.
  - destruct salts as [|s ss]; [discriminate|].
    destruct (build_disclosure E c p s) as [[c1 d]|] eqn:Eb; cbn in Hf; [|discriminate].
    destruct (issue_fold E c1 ps ss) as [[c2 ds2]|] eqn:Ef; cbn in Hf; [|discriminate]. injection Hf as <- <-.
    destruct (Hstep c p s c1 d Hc Eb) as [Hc1 Hd]. destruct (IH ss c1 c2 ds2 Hc1 Ef) as (Hc2 & HF & Hlen).
    split; [exact Hc2|]. cbn [List.length firstn]. split; [constructor; assumption|]. rewrite Hlen. reflexivity.
Qed.

(* the i-th disclosure is built from the i-th salt draw and from no other *)
Theorem issue_fold_salts : forall paths salts c c' ds,
  issue_fold E c paths salts = Ok (c', ds) -> Forall2 made_with ds (firstn (List.length paths) salts).
Proof.
  intros paths salts c c' ds Hf.
  exact (proj1 (proj2 (issue_fold_inv (fun _ => True) made_with (fun c0 p s c1 d _ Hb => conj I (build_disclosure_made c0 p s c1 d Hb))
                         paths salts c c' ds I Hf))).
Qed.

Lemma issue_fold_length : forall paths salts c c' ds,
  issue_fold E c paths salts = Ok (c', ds) -> List.length ds = List.length paths.
Proof.
  intros paths salts c c' ds Hf.
  exact (proj2 (proj2 (issue_fold_inv (fun _ => True) (fun _ _ => True) (fun _ _ _ _ _ _ _ => conj I I) paths salts c c' ds I Hf))).
Qed.

(* with distinct salt draws, an injective encoding and an injective hash, all disclosure strings and all
   digests of one issuance are pairwise distinct - also for identical claims *)
Hypothesis enc_inj : forall a b, ie_enc E a = ie_enc E b -> a = b.
Hypothesis hash_inj : forall a b, ie_hash E a = ie_hash E b -> a = b.

Theorem digests_distinct : forall ds salts, Forall2 made_with ds salts -> NoDup salts -> NoDup (map d_digest ds).
Proof. exact (mk_disc_digests_distinct (ie_hash E) (ie_enc E) enc_inj hash_inj). Qed.
End S.

(* a new digest enters its _sd list at the position the random draw says: the order of a digest list is a
   function of the draws, not of the order of the claims *)
Theorem sd_insertion_position E key salt kvs v ds :
  obj_get key kvs = Some v -> (String.eqb key "_sd" || String.eqb key "...") = false ->
  obj_get "_sd" (obj_remove key kvs) = Some (JArr ds) ->
  exists d, disclose_here E key salt (JObj kvs) =
            Ok (JObj (obj_insert "_sd" (JArr (insert_at (ie_pos E (d_digest d)) (JStr (d_digest d)) ds)) (obj_remove key kvs)), d)
            /\ d = mk_disc E salt (Some key) v.
Proof. intros H1 H2 H3. exists (mk_disc E salt (Some key) v). unfold disclose_here, mk_disc. cbn. rewrite H1, H2, H3. split; reflexivity. Qed.

(* decoys: exactly the drawn decoy digests are appended to the top-level list, which is then permuted by
   the shuffle draw *)
Theorem decoys_appended kvs ds decoys :
  obj_get "_sd" kvs = Some (JArr ds) -> add_decoys kvs decoys = Ok (obj_insert "_sd" (JArr (ds ++ map JStr decoys)) kvs).
Proof. intros H. unfold add_decoys. rewrite H. reflexivity. Qed.

Theorem decoys_create_list kvs decoys :
  obj_get "_sd" kvs = None -> add_decoys kvs decoys = Ok (obj_insert "_sd" (JArr (map JStr decoys)) kvs).
Proof. intros H. unfold add_decoys. rewrite H. reflexivity. Qed.

Theorem top_list_shuffled E kvs ds : obj_get "_sd" kvs = Some (JArr ds) ->
  shuffle_top E kvs = obj_insert "_sd" (JArr (ie_perm E ds)) kvs.
Proof. intros H. unfold shuffle_top. rewrite H. reflexivity. Qed.
