(* The complete restore_disclosures of the model (decode all, pass loop, duplicate and structure checks)
   on a conformant token: rejects, or returns exactly the view of the presented set. *)
From Coq Require Import List String Arith Lia.
Import ListNotations.
Require Import SDJ.Json SDJ.Model2 SDJ.Restore2 SDJ.ATree SDJ.T2c SDJ.T2d SDJ.T2e SDJ.T2l SDJ.T2m SDJ.T2n.
Local Open Scope string_scope.

(* the digests checked first are those of the placed array elements *)
Lemma in_placed_items g ps : In g (placed_item_digests ps) <-> exists pd, In pd ps /\ d_key (snd pd) = None /\ pdig pd = g.
Proof.
  unfold placed_item_digests. rewrite in_flat_map. split; intros (pd & Hpd & Hg); exists pd; (split; [assumption|]).
  - destruct (d_key (snd pd)); [destruct Hg|destruct Hg as [<-|[]]; auto].
  - destruct Hg as [-> <-]. left. reflexivity.
Qed.

Lemma NoDup_placed_items ps : NoDup (map pdig ps) -> NoDup (placed_item_digests ps).
Proof.
  induction ps as [|pd r IH]; [constructor|]. cbn [map]. intros Hnd. apply NoDup_cons_iff in Hnd as [Hni Hnd].
  change (placed_item_digests (pd :: r)) with ((match d_key (snd pd) with None => [pdig pd] | Some _ => [] end) ++ placed_item_digests r)%list.
  destruct (d_key (snd pd)); cbn [app]; [auto|]. constructor; [|auto].
  rewrite in_placed_items. intros (pd' & Hpd' & _ & Hq). apply Hni. rewrite <- Hq. apply in_map. assumption.
Qed.

Section O.
Variable H : string -> string.
Variable enc : list json -> string.
Variable dec : string -> dec_result.
Variable show_nat : nat -> string.
Hypothesis hash_inj : forall x y, H x = H y -> x = y.
Hypothesis dec_enc : forall ps, dec (enc ps) = DJson (JArr ps).

Notation blind := (blind H enc).
Notation view := (view H enc).
Notation hdigs := (hdigs H enc).
Notation alldigs := (alldigs H enc).
Notation wf := (wf H enc).

Variable t : atree.
Hypothesis Hwf : wf t.
Hypothesis Hnd : NoDup (alldigs t).
Hypothesis Hndh : NoDup (hdigs t).
Hypothesis Hheight : aheight t <= 129.

Lemma post_checks_ok R' todo placed :
  Forall (placed_ok H enc show_nat t R0 R' todo) placed -> NoDup (map pdig placed) ->
  exists seen seen', insert_all (placed_item_digests placed) [] = Ok seen /\
                     check_digests 129 (view R' t) seen = Ok seen'.
Proof.
  intros Hpl Hndp. apply NoDup_placed_items in Hndp.
  exists (rev (placed_item_digests placed) ++ [])%list.
  destruct (check_digests_ok 129 (view R' t) (rev (placed_item_digests placed) ++ [])%list) as [seen' Hc].
  - apply sdwf_view. assumption.
  - exact (Nat.le_trans _ _ _ (height_view H enc R' t Hwf) Hheight).
  - rewrite app_nil_r. apply NoDup_app_intro.
    + apply nodup_of_cnt. intros g. pose proof (cnt_view H enc R' g t Hwf). pose proof (cnt_nodup g _ Hnd). lia.
    + apply NoDup_rev. assumption.
    + (* a placed element is opened and reachable: it counts in oitems, so its digest is not embedded in the view as well *)
      intros g Hc Hp. apply in_rev, in_placed_items in Hp as (pd & Hpd & Ek & <-).
      rewrite Forall_forall in Hpl. destruct (Hpl pd Hpd) as (_ & Ho & R1 & _ & Hmono & Hex & _). rewrite Ek in Hex. fold (pdig pd) in Ho, Hex.
      pose proof (cnt_in _ _ (Exposed_oitems H enc R1 R' _ _ t Hex Hmono Ho)). pose proof (cnt_in _ _ Hc).
      pose proof (cnt_view H enc R' (pdig pd) t Hwf). pose proof (cnt_nodup (pdig pd) _ Hnd). lia.
  - exists seen'. split; [|assumption]. apply insert_all_ok. rewrite app_nil_r. assumption.
Qed.

(* C03 / C08 / C12 core at full strength: for every duplicate-free list of presented strings, in any
   order, none of which hashes to a decoy: when all of them decode, the complete restore_disclosures accepts
   and returns exactly the view of the presented set.
   What the returned path list says: every entry is a presented disclosure together with the path of the
   hidden node it opens; no disclosure is reported twice; and the final state Rf of the loop (whose view is
   the returned one) only contains digests that were reported and has nothing presented left exposed *)
Theorem restore_full_ok_paths L ds :
  NoDup L -> (forall s, In s L -> In (H s) (alldigs t) -> In (H s) (hdigs t)) ->
  decode_all H dec L = Ok ds ->
  exists ps, restore_disclosures H dec show_nat (blind t) L = Ok (view (ownS H L) t, ps) /\
    Forall (fun pd : dpath => In (snd pd) ds /\ NodePath H enc show_nat (d_digest (snd pd)) t (fst pd)) ps /\
    NoDup (map pdig ps) /\
    exists Rf, (forall g, Rf g = true -> In g (map pdig ps)) /\
               (forall g k v, Exposed H enc Rf g k v t -> own ds g = false) /\
               (forall g, Rf g = true -> own ds g = true).
Proof.
  intros HndL Hdecoy Ed. unfold restore_disclosures.
  destruct (restore_passes_ok H enc dec show_nat hash_inj dec_enc t Hwf Hnd Hndh Hheight L ds HndL Hdecoy Ed) as (placed & Hps & Hpl & Hndp & HRf).
  destruct (decode_all_spec H enc dec hash_inj dec_enc t Hwf L ds Ed Hdecoy) as [Hm _].
  rewrite Hps, (view_ownS H enc t ds L Hm). cbn [bind].
  destruct (post_checks_ok (own ds) ds placed Hpl Hndp) as (seen & seen' & Hi & Hc).
  rewrite Hi. cbn [bind]. rewrite Hc. cbn [bind].
  exists placed. split; [reflexivity|]. split; [|split; assumption].
  eapply Forall_impl; [|exact Hpl]. intros pd (Hin & _ & R1 & _ & _ & _ & Hnp). split; assumption.
Qed.

Theorem restore_full_ok L ds :
  NoDup L -> (forall s, In s L -> In (H s) (alldigs t) -> In (H s) (hdigs t)) ->
  decode_all H dec L = Ok ds ->
  exists ps, restore_disclosures H dec show_nat (blind t) L = Ok (view (ownS H L) t, ps).
Proof.
  intros HndL Hdecoy Ed. destruct (restore_full_ok_paths L ds HndL Hdecoy Ed) as (ps & Hps & _). eauto.
Qed.

Theorem restore_full_spec L :
  NoDup L -> (forall s, In s L -> In (H s) (alldigs t) -> In (H s) (hdigs t)) ->
  restore_disclosures H dec show_nat (blind t) L = Err \/
  exists ps, restore_disclosures H dec show_nat (blind t) L = Ok (view (ownS H L) t, ps).
Proof.
  intros HndL Hdecoy. destruct (decode_all H dec L) as [ds|] eqn:Ed.
  - right. eapply restore_full_ok; eauto.
  - left. unfold restore_disclosures, restore_passes. rewrite Ed. reflexivity.
Qed.
End O.
