(* C04 / C16: crate::decode accepts only the exact token, under the configured algorithm and a key of its family; holder
   and verifier decode before anything else; the serialised header carries every field of the issuer's header. *)
From Coq Require Import List String Lia.
Import ListNotations.
Require Import SDJ.Json SDJ.Wire SDJ.Out SDJ.Split SDJ.SplitMProofs SDJ.Verify SDJ.Jwt SDJ.C11Proofs SDJ.T2b.
Local Open Scope string_scope.

Lemma jalg_of_name_name a : jalg_of_name (jalg_name a) = Some a.
Proof. destruct a; reflexivity. Qed.

Lemma jalg_eqb_eq a b : jalg_eqb a b = true -> a = b.
Proof.
  unfold jalg_eqb. intros Hq. apply String.eqb_eq in Hq. apply (f_equal jalg_of_name) in Hq.
  rewrite !jalg_of_name_name in Hq. injection Hq as ->. reflexivity.
Qed.

(* under an ideal signature (only the exact issued token verifies, and only under the algorithm it was
   signed with), whatever is accepted is that token, the configured algorithm is the signing algorithm,
   and the key is of the right family *)
Theorem decode_only_exact W tok0 A :
  (forall t a, jw_sig_ok W t a = true -> t = tok0 /\ a = A) ->
  forall token v r, decode_model W token v = Val r -> token = tok0 /\ v_alg v = A /\ family_ok (jw_family W) A = true.
Proof.
  intros Hideal token v [h p] Hd. apply decode_model_iff in Hd as (_ & a & claims & _ & Hq & Hf & Hs & _).
  destruct (Hideal _ _ Hs) as [-> ->]. apply jalg_eqb_eq in Hq. subst. repeat split; assumption.
Qed.

(* holder and verifier decode the first '~'-segment before anything else: if it does not decode, they fail *)
Theorem holder_decodes_first O token : (forall jwt ds kb, sd_jwt_parts token = (jwt, ds, kb) -> o_jwt O jwt = Fail) ->
  holder_verify O token = Fail.
Proof.
  intros Hf. unfold holder_verify, holder_verify_raw. rewrite sd_jwt_parts_m_total. cbn [obind].
  destruct (sd_jwt_parts token) as [[jwt ds] kb] eqn:Ep. destruct kb; [reflexivity|].
  rewrite (Hf _ _ _ eq_refl). reflexivity.
Qed.
Theorem verifier_decodes_first O token kbpol : (forall jwt ds kb, sd_jwt_parts token = (jwt, ds, kb) -> o_jwt O jwt = Fail) ->
  verifier_verify O token kbpol = Fail.
Proof.
  intros Hf. unfold verifier_verify, verifier_verify_raw. rewrite sd_jwt_parts_m_total. cbn [obind].
  destruct (sd_jwt_parts token) as [[jwt ds] kb] eqn:Ep. rewrite (Hf _ _ _ eq_refl). reflexivity.
Qed.

Theorem family_table k a : family_ok k a = true <->
  (k = KSecret /\ In a [HS256; HS384; HS512]) \/ (k = KRsa /\ In a [RS256; RS384; RS512; PS256; PS384; PS512]) \/
  (k = KEc /\ In a [ES256; ES256K; ES384; ES512]).
Proof.
  split.
  - intros H. destruct k; [left|right; left|right; right|discriminate];
      (split; [reflexivity|]); destruct a; try discriminate; cbn; auto 8.
  - intros [[-> H]|[[-> H]|[-> H]]]; cbn in H; repeat (destruct H as [<-|H]; [reflexivity|]); contradiction.
Qed.

Definition opt_str_json (o : option string) : json := match o with Some s => JStr s | None => JNull end.
Definition opt_list_json (o : option (list string)) : json := match o with Some l => JArr (map JStr l) | None => JNull end.

Lemma obj_get_app_miss k (a b : list (string * json)) : obj_get k a = None -> obj_get k (a ++ b) = obj_get k b.
Proof. induction a as [|[k' v] r IH]; cbn; [reflexivity|]. destruct (String.eqb k k'); [discriminate|exact IH]. Qed.

(* the members of the serialised header in the order serde writes them, an absent one as null *)
Definition header_table (h : header) : list (string * json) :=
  [("alg", JStr (jalg_name (h_alg h))); ("crit", opt_list_json (h_crit h)); ("cty", opt_str_json (h_cty h));
   ("jku", opt_str_json (h_jku h)); ("kid", opt_str_json (h_kid h)); ("typ", opt_str_json (h_typ h));
   ("x5c", opt_list_json (h_x5c h)); ("x5t", opt_str_json (h_x5t h)); ("x5t_s256", opt_str_json (h_x5t_s256 h));
   ("x5u", opt_str_json (h_x5u h))].

(* one optional member in front of members of other names: reading the object is reading the table *)
Lemma optional_member {A} (f : A -> json) n (o : option A) L tbl :
  (forall k, jget k (JObj L) = jget k (JObj tbl)) -> obj_get n tbl = None ->
  forall k, jget k (JObj (match o with Some a => [(n, f a)] | None => [] end ++ L)) =
            jget k (JObj ((n, match o with Some a => f a | None => JNull end) :: tbl)).
Proof.
  intros HL Hn k. cbn [jget obj_get] in *. destruct o as [a|]; cbn [app obj_get].
  - destruct (String.eqb k n); [reflexivity|apply HL].
  - destruct (String.eqb_spec k n) as [->|_]; [rewrite HL, Hn; reflexivity|apply HL].
Qed.

Lemma jget_header h : forall k, jget k (jheader_json (build_header h)) = jget k (JObj (header_table h)).
Proof.
  destruct h as [typ alg cty jku kid x5u x5c x5t x5ts crit]. unfold jheader_json, build_header, header_table.
  cbn [h_typ h_alg h_cty h_jku h_kid h_x5u h_x5c h_x5t h_x5t_s256 h_crit
       jh_alg jh_jku jh_kid jh_x5u jh_x5c jh_x5t jh_x5t_s256 jh_typ jh_cty jh_crit].
  rewrite <- (app_nil_r (mem_str "x5u" x5u)).
  apply (optional_member (fun a => JStr (jalg_name a)) "alg" (Some alg)); [|reflexivity].
  do 9 (apply optional_member; [|reflexivity]). reflexivity.
Qed.

Lemma incl_by_eqb (l m : list string) : forallb (fun x => existsb (String.eqb x) m) l = true -> incl l m.
Proof.
  rewrite forallb_forall. intros H x Hx. apply H, existsb_exists in Hx as (y & Hy & Hq).
  apply String.eqb_eq in Hq as ->. exact Hy.
Qed.

(* every field of the issuer's header arrives under the member of the same meaning, absent fields are
   absent, and there is no other member *)
Theorem header_roundtrip h :
  let j := jheader_json (build_header h) in
  jget "alg" j = JStr (jalg_name (h_alg h)) /\ jget "typ" j = opt_str_json (h_typ h) /\ jget "cty" j = opt_str_json (h_cty h) /\
  jget "jku" j = opt_str_json (h_jku h) /\ jget "kid" j = opt_str_json (h_kid h) /\ jget "x5u" j = opt_str_json (h_x5u h) /\
  jget "x5c" j = opt_list_json (h_x5c h) /\ jget "x5t" j = opt_str_json (h_x5t h) /\
  jget "x5t_s256" j = opt_str_json (h_x5t_s256 h) /\ jget "crit" j = opt_list_json (h_crit h) /\
  (forall k, ~ In k ["alg"; "typ"; "cty"; "jku"; "kid"; "x5u"; "x5c"; "x5t"; "x5t_s256"; "crit"] -> jget k j = JNull).
Proof.
  cbv zeta. repeat (split; [apply jget_header|]).
  intros k Hk. rewrite jget_header. cbn [jget]. rewrite obj_get_none; [reflexivity|].
  (* the names of the table are those of the statement in another order *)
  intros Hin. apply Hk. revert Hin. apply incl_by_eqb. reflexivity.
Qed.
