(* IsNode under an exchange in the middle of a member or item list and under add_sd, hence under marking. *)
From Coq Require Import List String Ascii Bool Arith Lia Sorting.Sorted Permutation.
Import ListNotations.
Require Import SDJ.Json SDJ.ATree SDJ.T2c SDJ.T2k SDJ.T1a SDJ.T1b SDJ.T1f.
Local Open Scope string_scope.

Section T1h.
Variable H : string -> string.
Variable enc : list json -> string.
Variable parse_index : string -> option nat.
Variable parse_usize : string -> option nat.
Variable pos : string -> nat.
Notation add_sd := (T1a.add_sd pos).
Notation wf := (wf H enc).
Notation IsNode := (IsNode H enc).
Notation mark := (mark H enc parse_index parse_usize pos).

Definition Rall : Rset := fun _ => true.

Lemma IsNode_item_mid g k v pre s post ik' s' :
  (IsNode g k v s -> IsNode g k v s') ->
  IsNode g k v (AArr (pre ++ (IPlain, s) :: post)) -> IsNode g k v (AArr (pre ++ (ik', s') :: post)).
Proof.
  intros Hs Hn. inversion Hn as [? salt' s0 Hin Hg Hk Hv | ? ik s0 Hin Hs0 | |]; subst.
  - destruct (in_mid_split _ _ _ _ Hin) as [Hq|Hin']; [discriminate|]. eapply in_item_here; eauto.
  - destruct (in_mid_split _ _ _ _ Hin) as [Hq|Hin'].
    + injection Hq as -> ->. eapply in_item_in; [apply in_elt|auto].
    + eapply in_item_in; [apply Hin'|assumption].
Qed.

Lemma IsNode_mem_mid g k v pre n s post mk' s' :
  (IsNode g k v s -> IsNode g k v s') ->
  IsNode g k v (AObj (pre ++ (n, (MPlain, s)) :: post)) -> IsNode g k v (AObj (pre ++ (n, (mk', s')) :: post)).
Proof.
  intros Hs Hn. inversion Hn as [| | ? name salt' s0 Hin Hg Hk Hv | ? name mk s0 Hin Hs0]; subst.
  - destruct (in_mid_split _ _ _ _ Hin) as [Hq|Hin']; [discriminate|]. eapply in_mem_here; eauto.
  - destruct (in_mid_split _ _ _ _ Hin) as [Hq|Hin'].
    + injection Hq as -> -> ->. eapply in_mem_in; [apply in_elt|auto].
    + eapply in_mem_in; [apply Hin'|assumption].
Qed.

Lemma IsNode_add_sd g k v g' mems : IsNode g k v (AObj mems) -> IsNode g k v (AObj (add_sd g' mems)).
Proof.
  intros Hn. inversion Hn as [| | ? name salt s Hin Hg Hk Hv | ? name mk s Hin Hs]; subst;
    destruct (add_sd_in pos g' _ _ _ _ Hin) as (mk' & Hin' & Hmk).
  - rewrite (Hmk _ eq_refl) in Hin'. eapply in_mem_here; eauto.
  - eapply in_mem_in; eauto.
Qed.

Theorem mark_IsNode_old g k v key salt : forall toks t t', wf t -> mark toks key salt t = Some t' -> IsNode g k v t -> IsNode g k v t'.
Proof.
  intros toks t t' _ Hm. destruct (mark_marks Hm) as (k0 & u & _ & HM). clear Hm.
  induction HM as [pre s post Hi | pre s post Hni | tok rest pre s s' post k0 u Hi HM IH | tok rest pre s s' post k0 u Hni HM IH].
  - apply IsNode_item_mid. exact (fun h => h).
  - intros Hn. apply IsNode_add_sd. revert Hn. apply IsNode_mem_mid. exact (fun h => h).
  - apply IsNode_item_mid. exact IH.
  - apply IsNode_mem_mid. exact IH.
Qed.
End T1h.
