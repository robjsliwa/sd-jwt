(* The claims of a token as a tree in which every array element and object member says whether it is disclosed
   selectively: `blind` is the payload that is signed, `view R` the payload with the disclosures in R put back.

   Idiom, here and wherever a function over these trees or over JSON values is defined: a function that recurses through the two lists is a Fixpoint with the body
   for one element and for one member written inline (the guard checker needs the recursive call in place); the body
   is then named (view_item, view_mem), and two equations _arr / _obj, by reflexivity, restate the Fixpoint through
   the names. Proofs rewrite with these and reason about one element or member. *)
From Coq Require Import List String Ascii Bool Arith Lia.
Import ListNotations.
Require Import SDJ.Json.
Local Open Scope string_scope.

(* IHid / MHid: hidden behind the digest of a disclosure with this salt. IDecoy g: a placeholder with digest g and no
   disclosure. MSd l: the member "_sd" itself, l the digests it lists. IDecoy and MSd have no subtree: theirs is
   ALeaf JNull (T2c.item_ok, T2c.mem_ok). *)
Inductive ikind := IPlain | IHid (salt : json) | IDecoy (g : string).
Inductive mkind := MPlain | MHid (salt : json) | MSd (l : list string).

Inductive atree :=
| ALeaf (j : json)
| AArr (items : list (ikind * atree))
| AObj (mems : list (string * (mkind * atree))).

Section atree_ind.
  Variable P : atree -> Prop.
  Hypothesis Hleaf : forall j, P (ALeaf j).
  Hypothesis Harr : forall items, Forall (fun it => P (snd it)) items -> P (AArr items).
  Hypothesis Hobj : forall mems, Forall (fun m => P (snd (snd m))) mems -> P (AObj mems).
  Fixpoint atree_ind' (t : atree) : P t :=
    match t with
    | ALeaf j => Hleaf j
    | AArr items => Harr items ((fix go (l : list (ikind * atree)) : Forall (fun it => P (snd it)) l :=
         match l with [] => Forall_nil _ | (k, s) :: r => Forall_cons (k, s) (atree_ind' s) (go r) end) items)
    | AObj mems => Hobj mems ((fix go (l : list (string * (mkind * atree))) : Forall (fun m => P (snd (snd m))) l :=
         match l with [] => Forall_nil _ | (n, (k, s)) :: r => Forall_cons (n, (k, s)) (atree_ind' s) (go r) end) mems)
    end.
End atree_ind.

Lemma atree_ind_in (P : atree -> Prop) :
  (forall j, P (ALeaf j)) ->
  (forall items, (forall it, In it items -> P (snd it)) -> P (AArr items)) ->
  (forall mems, (forall m, In m mems -> P (snd (snd m))) -> P (AObj mems)) ->
  forall t, P t.
Proof.
  intros Hl Ha Ho. induction t as [j | items IH | mems IH] using atree_ind'; [apply Hl|apply Ha|apply Ho];
    rewrite Forall_forall in IH; exact IH.
Qed.

Definition placeholder (g : string) : json := JObj [("...", JStr g)].

Section AT.
Variable H : string -> string.
Variable enc : list json -> string.

(* the set of digests whose disclosure has been put back ("opened") *)
Definition Rset := string -> bool.
Definition Radd (R : Rset) (g : string) : Rset := fun x => orb (String.eqb x g) (R x).
Definition R0 : Rset := fun _ => false.

Fixpoint blind (t : atree) : json :=
  match t with
  | ALeaf j => j
  | AArr items => JArr (map (fun it => let '(k, s) := it in
        match k with
        | IPlain => blind s
        | IHid salt => placeholder (H (enc [salt; blind s]))
        | IDecoy g => placeholder g end) items)
  | AObj mems => JObj (flat_map (fun m => let '(name, (k, s)) := m in
        match k with
        | MPlain => [(name, blind s)]
        | MHid salt => []
        | MSd l => [(name, JArr (map JStr l))] end) mems)
  end.

Definition dig_item (salt : json) (s : atree) : string := H (enc [salt; blind s]).
Definition dig_mem (salt : json) (name : string) (s : atree) : string := H (enc [salt; JStr name; blind s]).

Definition view_item (view : atree -> json) (R : Rset) (it : ikind * atree) : json :=
  let '(k, s) := it in
  match k with
  | IPlain => view s
  | IHid salt => if R (dig_item salt s) then view s else placeholder (dig_item salt s)
  | IDecoy g => placeholder g end.

Definition view_mem (view : atree -> json) (R : Rset) (m : string * (mkind * atree)) : list (string * json) :=
  let '(name, (k, s)) := m in
  match k with
  | MPlain => [(name, view s)]
  | MHid salt => if R (dig_mem salt name s) then [(name, view s)] else []
  | MSd l => [(name, JArr (map JStr l))] end.

Fixpoint view (R : Rset) (t : atree) : json :=
  match t with
  | ALeaf j => j
  | AArr items => JArr (map (fun it => let '(k, s) := it in
        match k with
        | IPlain => view R s
        | IHid salt => if R (dig_item salt s) then view R s else placeholder (dig_item salt s)
        | IDecoy g => placeholder g end) items)
  | AObj mems => JObj (flat_map (fun m => let '(name, (k, s)) := m in
        match k with
        | MPlain => [(name, view R s)]
        | MHid salt => if R (dig_mem salt name s) then [(name, view R s)] else []
        | MSd l => [(name, JArr (map JStr l))] end) mems)
  end.

Lemma view_arr R items : view R (AArr items) = JArr (map (view_item (view R) R) items).
Proof. reflexivity. Qed.
Lemma view_obj R mems : view R (AObj mems) = JObj (flat_map (view_mem (view R) R) mems).
Proof. reflexivity. Qed.

(* all hidden-node digests in the subtree, and all decoy digests *)
Fixpoint hdigs (t : atree) : list string :=
  match t with
  | ALeaf _ => []
  | AArr items => flat_map (fun it => let '(k, s) := it in
        match k with IHid salt => dig_item salt s :: hdigs s | _ => hdigs s end) items
  | AObj mems => flat_map (fun m => let '(name, (k, s)) := m in
        match k with MHid salt => dig_mem salt name s :: hdigs s | _ => hdigs s end) mems
  end.

End AT.
