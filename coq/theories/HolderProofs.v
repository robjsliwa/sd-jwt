(* Holder::redact / build: which disclosures a presentation carries (C02, C06). *)
From Coq Require Import List String Bool Lia.
Import ListNotations.
Require Import SDJ.Model2 SDJ.Out SDJ.SplitM SDJ.Verify.
Local Open Scope string_scope.

Lemma withheld_app paths a b p : withheld paths (a ++ b) p = withheld paths a p || withheld paths b p.
Proof. unfold withheld. apply existsb_app. Qed.

(* redacting a string that is not the path of a disclosable claim changes nothing *)
Theorem selected_redact_foreign h r :
  is_disclosable (h_paths h) r = false -> selected (holder_redact h r) = selected h.
Proof.
  intros Hn. unfold selected, holder_redact. cbn [h_paths h_redacted]. f_equal.
  apply filter_ext. intros p. rewrite withheld_app. f_equal.
  unfold withheld at 2. cbn [existsb]. rewrite Hn. cbn. rewrite orb_false_r. reflexivity.
Qed.

(* the order of redactions does not matter, nor do repetitions *)
Theorem withheld_perm paths a b p : (forall r, In r a <-> In r b) -> withheld paths a p = withheld paths b p.
Proof.
  intros Hab. unfold withheld. apply eq_true_iff_eq. rewrite !existsb_exists.
  split; intros [r [Hin Hr]]; exists r; (split; [apply Hab; assumption|assumption]).
Qed.

(* C06: no disclosure of a redacted disclosable claim, nor of anything below it, is selected *)
Theorem selected_excludes h r p :
  In r (h_redacted h) -> is_disclosable (h_paths h) r = true ->
  In p (h_paths h) -> (fst p = r \/ starts_with (r ++ "/") (fst p) = true) ->
  ~ In p (filter (fun p => negb (withheld (h_paths h) (h_redacted h) (fst p))) (h_paths h)).
Proof.
  intros Hr Hd Hp Hm Hin. apply filter_In in Hin as [_ Hw]. apply negb_true_iff in Hw.
  assert (Ht : withheld (h_paths h) (h_redacted h) (fst p) = true).
  { unfold withheld. apply existsb_exists. exists r. split; [assumption|]. rewrite Hd. cbn.
    destruct Hm as [-> | ->]; [rewrite String.eqb_refl; reflexivity|apply orb_true_r]. }
  congruence.
Qed.

(* ... and every other disclosure is selected: exactly the non-withheld ones, in the holder's order *)
Theorem selected_spec h :
  selected h = map (fun p => d_str (snd p)) (filter (fun p => negb (withheld (h_paths h) (h_redacted h) (fst p))) (h_paths h)).
Proof. reflexivity. Qed.

(* a disclosure is kept when no redacted disclosable path equals or encloses its path *)
Theorem selected_keeps h p :
  In p (h_paths h) ->
  (forall r, In r (h_redacted h) -> is_disclosable (h_paths h) r = true -> fst p <> r /\ starts_with (r ++ "/") (fst p) = false) ->
  In (d_str (snd p)) (selected h).
Proof.
  intros Hp Hno. unfold selected. apply (in_map (fun p : dpath => d_str (snd p))). apply filter_In. split; [assumption|].
  apply negb_true_iff. unfold withheld. apply not_true_is_false. intros Ht. apply existsb_exists in Ht as [r [Hr Hc]].
  apply andb_true_iff in Hc as [Hd Hm]. destruct (Hno r Hr Hd) as [Hne Hsw].
  apply orb_true_iff in Hm as [Hm|Hm]; [apply String.eqb_eq in Hm; congruence|congruence].
Qed.

(* segment boundary: "/a" does not cover "/ab" *)
Lemma starts_with_app a b : starts_with a (a ++ b) = true.
Proof. induction a as [|c a IH]; cbn; [reflexivity|]. rewrite Ascii.eqb_refl. exact IH. Qed.

(* Holder::build on a bound SD-JWT without key binding parameters is an error *)
Theorem build_bound_requires_kb O E h cseg a c claims :
  jwt_parts_m (h_jwt h) = Val (a, cseg, c) -> o_claims O cseg = Ok claims -> kb_bound claims = true ->
  h_kb h = None -> holder_build O E h = Fail.
Proof.
  intros Hj Hc Hb Hk. unfold holder_build. rewrite Hj. cbn [obind]. rewrite Hc. cbn [of_res obind]. rewrite Hb, Hk. reflexivity.
Qed.
