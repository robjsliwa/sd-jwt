(* T1a.add_sd on the members of an annotated object is what Issuer1.disclose_here does to the "_sd" member of the
   blinded object. *)
From Coq Require Import List String Ascii Bool Arith Lia Sorting.Sorted.
Import ListNotations.
Require Import SDJ.Json SDJ.Model2 SDJ.ATree SDJ.T2b SDJ.T2c SDJ.Issuer1 SDJ.T1a SDJ.T1b.
Local Open Scope string_scope.

Section T1.
Variable H : string -> string.
Variable enc : list json -> string.
Variable pos : string -> nat.
Notation add_sd := (T1a.add_sd pos).
Notation bmem := (bmem H enc).

(* the name _sd belongs to the digest list. add_sd leaves a member of that name that is not a list as it is
   (T1a.add_sd, branch Eq), so without this the digest would be lost. *)
Definition sd_names_ok (m : string * (mkind * atree)) : Prop :=
  match fst (snd m) with MSd _ => fst m = "_sd" | _ => fst m <> "_sd" end.

Lemma names_ok_of_wf mems : wf H enc (AObj mems) -> Forall sd_names_ok mems.
Proof.
  intros Hw. inversion Hw as [| | ? _ _ Hok]; subst. eapply Forall_impl; [|exact Hok].
  intros [n [k s]] [_ Hm]. unfold sd_names_ok. cbn [fst snd]. destruct k; [exact Hm|exact (proj1 Hm)|exact (proj1 Hm)].
Qed.

Lemma slt_compare_lt a b : slt a b -> String.compare a b = Lt.
Proof. exact (fun h => h). Qed.

(* The cases are those of Issuer1.disclose_here looking up "_sd" in the parent: a list is extended, none is created,
   any other value is an error there and does not occur here. *)
Lemma bmems_add_sd g : forall mems,
  StronglySorted slt (map fst mems) -> Forall sd_names_ok mems ->
  match obj_get "_sd" (flat_map bmem mems) with
  | Some (JArr ds) => obj_insert "_sd" (JArr (insert_at (pos g) (JStr g) ds)) (flat_map bmem mems) = flat_map bmem (add_sd g mems)
  | Some _ => False
  | None => obj_insert "_sd" (JArr [JStr g]) (flat_map bmem mems) = flat_map bmem (add_sd g mems)
  end.
Proof.
  induction mems as [|[n [k s]] r IH]; intros Hs Hn; [reflexivity|].
  cbn [map fst] in Hs. apply StronglySorted_inv in Hs as [Hs Hf].
  inversion Hn as [|? ? Hn1 Hn2]; subst. unfold sd_names_ok in Hn1. cbn in Hn1.
  specialize (IH Hs Hn2).
  cbn [add_sd]. destruct (String.compare "_sd" n) eqn:Ec.
  - apply String.compare_eq_iff in Ec. subst n.
    destruct k as [| |l]; try (exfalso; apply Hn1; reflexivity).
    cbn. rewrite insert_at_map. reflexivity.
  - (* every key is larger: no _sd member, and the new one comes first *)
    assert (Hgt : Forall (slt "_sd") (map fst ((n, (k, s)) :: r))).
    { constructor; [exact Ec|]. revert Hf. apply Forall_impl. intros a. exact (slt_trans _ _ _ Ec). }
    rewrite (obj_get_none _ _ (keyed_notin bmem (bmem_key H enc) (slt "_sd") "_sd" _ Hgt (slt_irrefl _))).
    exact (keyed_insert bmem (bmem_key H enc) "_sd" _ [] _ (conj (Forall_nil _) Hgt)).
  - assert (Hne : n <> "_sd") by (intros ->; cbn in Ec; discriminate).
    cbn [flat_map]. destruct k as [|salt|l].
    + cbn [T1b.bmem app]. cbn [obj_get]. destruct (String.eqb_spec "_sd" n); [congruence|].
      destruct (obj_get "_sd" (flat_map bmem r)) as [[| | | |ds|]|]; try contradiction; cbn [obj_insert]; rewrite Ec, IH; reflexivity.
    + cbn [T1b.bmem app]. exact IH.
    + exfalso. apply Hne. exact Hn1.
Qed.
End T1.
