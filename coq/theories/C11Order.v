(* C11: the policy built by a sequence of builder steps does not depend on the order of the steps, as long as every
   setting other than the required-claims set is named at most once: those steps overwrite one setting each, while
   with_required_claim may occur any number of times, because it adds to a set and insertions commute.
   The set is a strictly sorted list, the representation of HashSet<String> in the model; every policy reachable from
   Validation::new keeps it one (policy_ok), though the order result does not need that. *)
From Coq Require Import List String NArith Permutation Sorted OrderedTypeEx.
Import ListNotations.
Require Import SDJ.Jwt SDJ.C11Proofs SDJ.T2b SDJ.T2d.
Local Open Scope string_scope.

Definition run_steps (l : list bstep) (v : validation) : validation := fold_left step l v.

Definition sset_ok (l : list string) : Prop := StronglySorted slt l.

Lemma sset_insert_head_lt x y r : slt x y -> sset_insert x (y :: r) = x :: y :: r.
Proof. intros E. cbn [sset_insert]. unfold slt in E. rewrite E. reflexivity. Qed.

Lemma sset_insert_head_eq y r : sset_insert y (y :: r) = y :: r.
Proof. cbn [sset_insert]. rewrite compare_refl_eq. reflexivity. Qed.

Lemma sset_insert_head_gt x y r : slt y x -> sset_insert x (y :: r) = y :: sset_insert x r.
Proof. intros E. cbn [sset_insert]. rewrite (slt_gt _ _ E). reflexivity. Qed.

#[local] Hint Rewrite sset_insert_head_lt sset_insert_head_eq sset_insert_head_gt using assumption : sset_head.

Lemma sset_insert_all_gt x y l : slt y x -> Forall (slt y) l -> Forall (slt y) (sset_insert x l).
Proof.
  intros Hyx. induction 1 as [|z r Hz Hr IH]; [repeat constructor; assumption|].
  destruct (slt_cases x z) as [E | [<- | E]]; autorewrite with sset_head; repeat constructor; assumption.
Qed.

Lemma sset_insert_ok x l : sset_ok l -> sset_ok (sset_insert x l).
Proof.
  unfold sset_ok. induction l as [|y r IH]; intros Hs; [repeat constructor|].
  inversion Hs as [|? ? Hr Hy]; subst. destruct (slt_cases x y) as [E | [-> | E]]; autorewrite with sset_head.
  - constructor; [exact Hs|]. constructor; [exact E|].
    eapply Forall_impl; [|exact Hy]. intros a Ha. eapply slt_trans; eauto.
  - exact Hs.
  - constructor; [apply IH; exact Hr|]. apply sset_insert_all_gt; assumption.
Qed.

(* insertions commute, in any list. For a < b by induction on the list, comparing its head y with b and then with a:
   both sides compute outright unless y is below both; then both insertions pass y and the induction hypothesis applies *)
Lemma sset_insert_comm_lt a b : slt a b -> forall l, sset_insert a (sset_insert b l) = sset_insert b (sset_insert a l).
Proof.
  intros Hab. induction l as [|y r IH].
  - change (sset_insert a [b] = sset_insert b [a]). autorewrite with sset_head. reflexivity.
  - destruct (slt_cases b y) as [Hby | [<- | Hyb]].
    + pose proof (slt_trans _ _ _ Hab Hby) as Hay. autorewrite with sset_head. reflexivity.
    + autorewrite with sset_head. reflexivity.
    + destruct (slt_cases a y) as [Hay | [<- | Hya]]; autorewrite with sset_head; rewrite ?IH; reflexivity.
Qed.

Lemma sset_insert_comm_any a b l : sset_insert a (sset_insert b l) = sset_insert b (sset_insert a l).
Proof.
  destruct (slt_cases a b) as [Hab | [<- | Hba]]; [apply sset_insert_comm_lt, Hab|reflexivity|].
  symmetry. apply sset_insert_comm_lt, Hba.
Qed.

Lemma sset_insert_comm a b l : sset_ok l -> sset_insert a (sset_insert b l) = sset_insert b (sset_insert a l).
Proof. intros _. apply sset_insert_comm_any. Qed.

Definition policy_ok (v : validation) : Prop := match v_required v with Some l => sset_ok l | None => True end.

Lemma step_policy_ok v s : policy_ok v -> policy_ok (step v s).
Proof.
  unfold policy_ok. destruct s; cbn; try (intros H; exact H).
  destruct (v_required v) as [l|]; intros H; [apply sset_insert_ok; exact H|repeat constructor].
Qed.

Lemma run_steps_policy_ok l : forall v, policy_ok v -> policy_ok (run_steps l v).
Proof. unfold run_steps. induction l as [|s l IH]; intros v H; [exact H|]. cbn [fold_left]. apply IH. apply step_policy_ok. exact H. Qed.

Lemma step_commute_required v c1 c2 :
  step (step v (SWithRequiredClaim c1)) (SWithRequiredClaim c2) = step (step v (SWithRequiredClaim c2)) (SWithRequiredClaim c1).
Proof.
  assert (Htwice : forall c c', step (step v (SWithRequiredClaim c)) (SWithRequiredClaim c') =
    set_required v (Some (sset_insert c' (match v_required v with Some l => sset_insert c l | None => [c] end)))) by reflexivity.
  rewrite !Htwice. do 2 f_equal.
  destruct (v_required v) as [l|]; [apply sset_insert_comm_any|apply (sset_insert_comm_any c2 c1 [])].
Qed.

Definition others_once (l : list bstep) : Prop :=
  NoDup (map named (filter (fun s => match s with SWithRequiredClaim _ => false | _ => true end) l)).

Lemma Permutation_filter {A} (p : A -> bool) l1 l2 : Permutation l1 l2 -> Permutation (filter p l1) (filter p l2).
Proof.
  induction 1 as [|x l l' _ IH|x y l|l l' l'' _ IH1 _ IH2]; cbn [filter].
  - constructor.
  - destruct (p x); [constructor|]; exact IH.
  - destruct (p x), (p y); try apply Permutation_refl. apply perm_swap.
  - eapply perm_trans; eauto.
Qed.

Lemma others_once_perm l1 l2 : Permutation l1 l2 -> others_once l1 -> others_once l2.
Proof. intros Hp. apply Permutation_NoDup, Permutation_map, Permutation_filter, Hp. Qed.

Lemma others_once_tail x l : others_once (x :: l) -> others_once l.
Proof.
  unfold others_once. cbn [filter]. destruct x; try exact (fun H => H); intros H; apply NoDup_cons_iff in H; apply H.
Qed.

(* two adjacent steps can be exchanged: they name different settings, or both are with_required_claim *)
Lemma step_commute_once v x y l : others_once (y :: x :: l) -> step (step v y) x = step (step v x) y.
Proof.
  unfold others_once. intros Ho.
  destruct x, y; try (apply step_commute; discriminate); try apply step_commute_required;
    cbn [filter map named] in Ho; apply NoDup_cons_iff in Ho as [Hx _]; exfalso; apply Hx; left; reflexivity.
Qed.

Theorem steps_order_irrelevant_any l1 l2 :
  Permutation l1 l2 -> others_once l1 -> forall v, run_steps l1 v = run_steps l2 v.
Proof.
  unfold run_steps. induction 1 as [|x l l' Hp IH|x y l|l l' l'' Hp1 IH1 Hp2 IH2]; intros Ho v; cbn [fold_left].
  - reflexivity.
  - apply IH, (others_once_tail x), Ho.
  - f_equal. apply (step_commute_once v x y l Ho).
  - rewrite IH1 by assumption. apply IH2. eapply others_once_perm; eauto.
Qed.

Theorem steps_order_irrelevant_sets l1 l2 :
  Permutation l1 l2 -> others_once l1 -> forall v, policy_ok v -> run_steps l1 v = run_steps l2 v.
Proof. intros Hp Ho v _. apply steps_order_irrelevant_any; assumption. Qed.

Theorem steps_order_irrelevant l1 l2 :
  Permutation l1 l2 -> NoDup (map named l1) -> forall v, run_steps l1 v = run_steps l2 v.
Proof. intros Hp Hnd. apply steps_order_irrelevant_any; [exact Hp|]. apply NoDup_map_filter, Hnd. Qed.

(* non-vacuity: a reachable policy satisfies the premise, and a three-step sequence with two required claims *)
Example policy_ok_new a : policy_ok (validation_new a).
Proof. exact I. Qed.
Example order_example :
  run_steps [SWithRequiredClaim "b"; SWithLeeway 5; SWithRequiredClaim "a"] (validation_new HS256)
  = run_steps [SWithRequiredClaim "a"; SWithRequiredClaim "b"; SWithLeeway 5] (validation_new HS256).
Proof. reflexivity. Qed.
