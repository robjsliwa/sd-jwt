(* Key binding: what Holder::build attaches (C09) *)
From Coq Require Import List String Lia.
Import ListNotations.
Require Import SDJ.Model2 SDJ.Out SDJ.Split SDJ.SplitM SDJ.Verify.
Local Open Scope string_scope.

(* Holder::build with key binding returns prefix ++ kb where kb signs {alg, typ: kb+jwt} and
   {aud, iat, nonce, sd_hash = hash of exactly the prefix under the token's _sd_alg} *)
Theorem build_bound_shape O E h a cseg c claims alg aud jalg kb :
  jwt_parts_m (h_jwt h) = Val (a, cseg, c) -> o_claims O cseg = Ok claims -> kb_bound claims = true ->
  declared_halg claims = Some alg -> h_kb h = Some (aud, jalg) ->
  e_sign E (kb_header jalg) (kb_claims aud (e_nonce E) (e_iat E) (o_hash O alg (presentation_prefix (h_jwt h) (selected h)))) = Val kb ->
  holder_build O E h = Val (presentation_prefix (h_jwt h) (selected h) ++ kb).
Proof.
  intros Hj Hc Hb Ha Hk Hs. unfold holder_build. rewrite Hj. cbn [obind]. rewrite Hc. cbn [of_res obind].
  rewrite Hb, Hk, Ha. cbn [andb]. rewrite Hs. reflexivity.
Qed.

(* without cnf the presentation is just the prefix *)
Theorem build_unbound_shape O E h a cseg c claims :
  jwt_parts_m (h_jwt h) = Val (a, cseg, c) -> o_claims O cseg = Ok claims -> kb_bound claims = false ->
  holder_build O E h = Val (presentation_prefix (h_jwt h) (selected h)).
Proof.
  intros Hj Hc Hb. unfold holder_build. rewrite Hj. cbn [obind]. rewrite Hc. cbn [of_res obind]. rewrite Hb. reflexivity.
Qed.

(* whatever build returns begins with the presentation prefix of the holder's state, which build does not change:
   building again, with other random choices, selects the same disclosures *)
Lemma build_extends_prefix O E h p :
  holder_build O E h = Val p -> exists k, p = presentation_prefix (h_jwt h) (selected h) ++ k.
Proof.
  unfold holder_build.
  destruct (jwt_parts_m (h_jwt h)) as [[[a cseg] c]| |]; cbn [obind]; try discriminate.
  destruct (o_claims O cseg) as [claims|]; cbn [of_res obind]; try discriminate.
  destruct (kb_bound claims).
  - destruct (h_kb h) as [[aud jalg]|]; cbn [andb]; try discriminate.
    destruct (declared_halg _) as [alg|]; try discriminate.
    destruct (e_sign E _ _) as [k| |]; cbn [obind]; try discriminate. intros [= <-]. eauto.
  - cbn [andb]. intros [= <-]. exists "". symmetry. apply append_nil_r.
Qed.

Theorem build_repeatable O E1 E2 h :
  forall p1 p2, holder_build O E1 h = Val p1 -> holder_build O E2 h = Val p2 ->
  exists k1 k2, p1 = presentation_prefix (h_jwt h) (selected h) ++ k1 /\ p2 = presentation_prefix (h_jwt h) (selected h) ++ k2.
Proof.
  intros p1 p2 H1 H2. destruct (build_extends_prefix O E1 h p1 H1) as [k1 ->]. destruct (build_extends_prefix O E2 h p2 H2) as [k2 ->]. eauto.
Qed.
