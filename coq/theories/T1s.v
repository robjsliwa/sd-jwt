(* C01, path component on the issuer side: the node marked through a path that resolves to address a is the
   hidden node at render a of the annotated tree, and later markings / the root post-processing of encode do
   not move it. *)
From Coq Require Import List String Ascii Bool Arith Lia Sorting.Sorted Permutation.
Import ListNotations.
Require Import SDJ.Split SDJ.Json SDJ.Model2 SDJ.ATree SDJ.T2c SDJ.T2e SDJ.Issuer1 SDJ.T1a SDJ.T1b SDJ.T1d SDJ.T1f SDJ.T1j SDJ.T1m SDJ.T1r.
Local Open Scope string_scope.

Section S.
Variable H : string -> string.
Variable enc : list json -> string.
Variable show_nat : nat -> string.
Variable parse_index : string -> option nat.
Variable parse_usize : string -> option nat.
Variable pos : string -> nat.
Notation add_sd := (T1a.add_sd pos).
Notation blind := (blind H enc).
Notation wf := (wf H enc).
Notation NodePath := (NodePath H enc show_nat).
Notation mark := (mark H enc parse_index parse_usize pos).
Notation target := (target parse_index parse_usize).
Notation resolve := (resolve parse_index parse_usize).
Notation mk_disc := (mk_disc H enc).

(* the path string the holder reports for an address: member names escaped as JSON pointer tokens, indices in decimal *)
Fixpoint render (a : addr) : string :=
  match a with
  | [] => ""
  | SKey k :: r => "/" ++ esc_tok k ++ render r
  | SIdx i :: r => "/" ++ esc_tok (show_nat i) ++ render r
  end.

(* the element y of a list stays at its position when another element x is exchanged *)
Lemma mid_replace {A} (pre post pre1 post1 : list A) x y x' :
  (pre ++ x :: post = pre1 ++ y :: post1)%list ->
  (pre = pre1 /\ x = y /\ post = post1) \/
  exists pre' post', (pre ++ x' :: post = pre' ++ y :: post')%list /\ List.length pre' = List.length pre1.
Proof.
  revert pre1. induction pre as [|z r IH]; intros [|z1 r1] Hq; cbn in Hq.
  - injection Hq as -> ->. auto.
  - injection Hq as -> ->. right. exists (x' :: r1), post1. auto.
  - injection Hq as -> <-. right. exists [], (r ++ x' :: post)%list. auto.
  - injection Hq as -> Hq. destruct (IH _ Hq) as [(-> & -> & ->)|(pre' & post' & Hq' & Hl)]; [auto|].
    right. exists (z1 :: pre'), post'. cbn. rewrite Hq', Hl. auto.
Qed.

Lemma NodePath_item_mid g pre s post ik' s' p :
  (forall q, NodePath g s q -> NodePath g s' q) ->
  NodePath g (AArr (pre ++ (IPlain, s) :: post)) p -> NodePath g (AArr (pre ++ (ik', s') :: post)) p.
Proof.
  intros Hs Hn. inversion Hn as [? pre1 post1 salt' s0 Hsplit Hg | ? pre1 post1 ik s0 suffix Hsplit Hs0 | |]; subst;
    destruct (mid_replace _ _ _ _ _ _ (ik', s') Hsplit) as [(-> & Hq & ->)|(pre' & post' & Hq & <-)].
  - discriminate.
  - eapply np_item_here; eauto.
  - injection Hq as <- <-. eapply np_item_in; [reflexivity|auto].
  - eapply np_item_in; eauto.
Qed.

Lemma NodePath_mem_mid g pre n s post mk' s' p :
  (forall q, NodePath g s q -> NodePath g s' q) ->
  NodePath g (AObj (pre ++ (n, (MPlain, s)) :: post)) p -> NodePath g (AObj (pre ++ (n, (mk', s')) :: post)) p.
Proof.
  intros Hs Hn. inversion Hn as [| | ? name salt' s0 Hin Hg | ? name mk s0 suffix Hin Hs0]; subst.
  - destruct (in_mid_split _ _ _ _ Hin) as [Hq|Hin']; [discriminate|]. eapply np_mem_here; eauto.
  - destruct (in_mid_split _ _ _ _ Hin) as [Hq|Hin'].
    + injection Hq as -> -> ->. eapply np_mem_in; [apply in_elt|auto].
    + eapply np_mem_in; [apply Hin'|assumption].
Qed.

Lemma NodePath_add_sd g g' mems p : NodePath g (AObj mems) p -> NodePath g (AObj (add_sd g' mems)) p.
Proof.
  intros Hn. inversion Hn as [| | ? name salt s Hin Hg | ? name mk s suffix Hin Hs]; subst;
    destruct (add_sd_in pos g' _ _ _ _ Hin) as (mk' & Hin' & Hmk).
  - rewrite (Hmk _ eq_refl) in Hin'. eapply np_mem_here; eauto.
  - eapply np_mem_in; eauto.
Qed.

Theorem mark_NodePath_old g key salt : forall toks t t' p, mark toks key salt t = Some t' -> NodePath g t p -> NodePath g t' p.
Proof.
  intros toks t t' p Hm. destruct (mark_marks Hm) as (k & u & _ & HM). clear Hm. revert p.
  induction HM as [pre s post Hi | pre s post Hni | tok rest pre s s' post k u Hi HM IH | tok rest pre s s' post k u Hni HM IH]; intros p.
  - apply NodePath_item_mid. auto.
  - intros Hn. apply NodePath_add_sd. revert Hn. apply NodePath_mem_mid. auto.
  - apply NodePath_item_mid. exact IH.
  - apply NodePath_mem_mid. exact IH.
Qed.

Theorem mark_NodePath_new key salt : forall toks t t' k s a,
  mark toks key salt t = Some t' -> target toks key t = Some (k, s) -> resolve toks key t = Some a ->
  NodePath (d_digest (mk_disc salt k (blind s))) t' (render a).
Proof.
  intros toks t t' k u a Hm Ht. pose proof (mark_marks_target Hm Ht) as HM. clear Hm Ht. revert a.
  induction HM as [pre s post Hi | pre s post Hni | tok rest pre s s' post k u Hi HM IH | tok rest pre s s' post k u Hni HM IH];
    intros a Hr; cbn [T1r.resolve] in Hr.
  - rewrite Hi, nth_error_mid in Hr. injection Hr as <-.
    cbn [render]. rewrite append_nil_r. eapply np_item_here; reflexivity.
  - rewrite findm_mid in Hr by assumption. injection Hr as <-.
    cbn [render]. rewrite append_nil_r. apply NodePath_add_sd. eapply np_mem_here; [apply in_elt|reflexivity].
  - rewrite Hi, nth_error_mid in Hr. destruct (resolve rest key s) as [a'|]; [|discriminate]. injection Hr as <-.
    cbn [render]. eapply np_item_in; [reflexivity|]. apply IH. reflexivity.
  - rewrite findm_mid in Hr by assumption.
    destruct (resolve rest key s) as [a'|]; [|discriminate]. injection Hr as <-.
    cbn [render]. eapply np_mem_in; [apply in_elt|]. apply IH. reflexivity.
Qed.

(* the root post-processing keeps every hidden node in place *)
Lemma NodePath_members g (mems mems2 : amems) p : wf (AObj mems) ->
  (forall m, In m mems -> (match fst (snd m) with MSd _ => False | _ => True end) -> In m mems2) ->
  NodePath g (AObj mems) p -> NodePath g (AObj mems2) p.
Proof.
  intros Hw Hsub Hn. inversion Hn as [| | ? name salt' s' Hin Hg | ? name mk s' suffix Hin Hs]; subst.
  - eapply np_mem_here; eauto. apply Hsub; [assumption|exact I].
  - destruct mk as [| |l].
    + eapply np_mem_in; [apply Hsub; [exact Hin|exact I]|assumption].
    + eapply np_mem_in; [apply Hsub; [exact Hin|exact I]|assumption].
    + exfalso. inversion Hw as [| | ? Hs0 Hall Hok]; subst. rewrite Forall_forall in Hok. specialize (Hok _ Hin). cbn in Hok.
      destruct Hok as [_ [_ ->]]. inversion Hs.
Qed.

Notation mark_fold := (T1j.mark_fold H enc parse_index parse_usize pos).
Notation issue_fold := (T1j.issue_fold H enc parse_index parse_usize pos).

Lemma mark_fold_inv (P : atree -> Prop) :
  (forall toks key salt t t', wf t -> mark toks key salt t = Some t' -> P t -> P t') ->
  forall paths salts t t', wf t -> mark_fold t paths salts = Some t' -> P t -> P t'.
Proof.
  intros HP. induction paths as [|[toks key] ps IH]; intros salts t t' Hw Hm Ht.
  - injection Hm as <-. assumption.
  - destruct salts as [|salt ss]; [discriminate|]. cbn [T1j.mark_fold] in Hm.
    destruct (mark toks key salt t) as [t1|] eqn:Em; [|discriminate].
    exact (IH ss t1 t' (mark_wf H enc parse_index parse_usize pos key salt toks t t1 Hw Em) Hm (HP _ _ _ _ _ Hw Em Ht)).
Qed.

Lemma mark_fold_wf : forall paths salts t t', wf t -> mark_fold t paths salts = Some t' -> wf t'.
Proof.
  intros paths salts t t' Hw Hm. refine (mark_fold_inv wf _ paths salts t t' Hw Hm Hw).
  intros toks key salt t0 t1 Hw0 Em _. exact (mark_wf H enc parse_index parse_usize pos key salt toks t0 t1 Hw0 Em).
Qed.

Lemma mark_fold_NodePath_old g p : forall paths salts t t', wf t -> mark_fold t paths salts = Some t' -> NodePath g t p -> NodePath g t' p.
Proof. apply (mark_fold_inv (fun t => NodePath g t p)). intros toks key salt t t' _. apply mark_NodePath_old. Qed.

Theorem issue_fold_paths : forall (paths : list (list string * string)) (addrs : list addr) salts t t',
  wf t -> Forall2 (fun p a => resolve (fst p) (snd p) t = Some a) paths addrs -> ordered addrs ->
  mark_fold t paths salts = Some t' ->
  exists ds, issue_fold (blind t) paths salts = Ok (blind t', ds) /\
             Forall2 (fun d a => NodePath (d_digest d) t' (render a)) ds addrs.
Proof.
  induction paths as [|[toks key] ps IH]; intros addrs salts t t' Hw HF Hord Hm.
  - inversion HF; subst. cbn in Hm. injection Hm as <-. exists []. split; [reflexivity|constructor].
  - inversion HF as [|? a ? ar Hr HF']; subst. cbn [fst snd] in Hr.
    destruct salts as [|salt ss]; [discriminate|]. cbn [T1j.mark_fold] in Hm.
    destruct (mark toks key salt t) as [t1|] eqn:Em; [|discriminate].
    destruct (build_disclosure_mark H enc parse_index parse_usize pos key salt toks t t1 Hw Em) as (k & s & Ht & Hb).
    pose proof (mark_wf H enc parse_index parse_usize pos key salt toks t t1 Hw Em) as Hw1.
    destruct Hord as [Hnp Hord'].
    pose proof (mark_keeps_all H enc parse_index parse_usize pos salt toks key t t1 a ps ar Hw Hr Em HF' Hnp) as HF1.
    destruct (IH ar ss t1 t' Hw1 HF1 Hord' Hm) as (ds & Hf & Hnps).
    exists (mk_disc salt k (blind s) :: ds). cbn [T1j.issue_fold]. rewrite Hb. cbn [bind]. rewrite Hf. cbn [bind].
    split; [reflexivity|]. constructor; [|assumption].
    apply (mark_fold_NodePath_old _ _ ps ss t1 t' Hw1 Hm).
    exact (mark_NodePath_new key salt toks t t1 k s a Em Ht Hr).
Qed.

(* when every index token is written canonically, the reported path is the issuer's (unescaped) token list,
   each token escaped again, joined by '/' *)
Definition canonical (tok : string) : Prop :=
  forall i, parse_index tok = Some i \/ parse_usize tok = Some i -> show_nat i = tok.

Fixpoint join_tokens (toks : list string) : string :=
  match toks with [] => "" | x :: r => "/" ++ esc_tok x ++ join_tokens r end.

Lemma render_tokens : forall toks key j a,
  jresolve parse_index parse_usize toks key j = Some a -> Forall canonical (toks ++ [key]) ->
  render a = join_tokens (toks ++ [key]).
Proof.
  induction toks as [|tok rest IH]; intros key j a Hr Hc.
  - cbn [app] in Hc. inversion Hc as [|? ? Hk _]; subst. destruct j as [| | | |xs|kvs]; cbn [jresolve] in Hr; try discriminate.
    + destruct (parse_usize key) as [i|] eqn:Ep; [|discriminate]. destruct (nth_error xs i); [|discriminate]. injection Hr as <-.
      cbn. rewrite (Hk i (or_intror Ep)). reflexivity.
    + destruct (obj_get key kvs); [|discriminate]. injection Hr as <-. reflexivity.
  - cbn [app] in Hc. inversion Hc as [|? ? Hk Hc']; subst. destruct j as [| | | |xs|kvs]; cbn [jresolve] in Hr; try discriminate.
    + destruct (parse_index tok) as [i|] eqn:Ep; [|discriminate]. destruct (nth_error xs i) as [v|]; [|discriminate].
      destruct (jresolve parse_index parse_usize rest key v) as [a'|] eqn:Er; [|discriminate]. injection Hr as <-.
      cbn [render join_tokens app]. rewrite (Hk i (or_introl Ep)), (IH _ _ _ Er Hc'). reflexivity.
    + destruct (obj_get tok kvs) as [v|]; [|discriminate].
      destruct (jresolve parse_index parse_usize rest key v) as [a'|] eqn:Er; [|discriminate]. injection Hr as <-.
      cbn [render join_tokens app]. rewrite (IH _ _ _ Er Hc'). reflexivity.
Qed.
End S.
