(* Repetitions in the presented list: a disclosure whose node is already opened is either invisible (array
   element: the placeholder is gone) or makes the whole restoration fail (object member: the name is taken).
   Hence for ANY list - no duplicate-freeness assumed - restore_disclosures rejects or returns the view of
   the presented set. *)
From Coq Require Import List String Arith.
Import ListNotations.
Require Import SDJ.Json SDJ.Model2 SDJ.Restore2 SDJ.ATree SDJ.T2a SDJ.T2c SDJ.T2e SDJ.T2g SDJ.T2i SDJ.T2j SDJ.T2l SDJ.T2m.
Local Open Scope string_scope.

Section Q.
Variable H : string -> string.
Variable enc : list json -> string.
Variable show_nat : nat -> string.
Notation blind := (blind H enc).
Notation view := (view H enc).
Notation dig_mem := (dig_mem H enc).
Notation hdigs := (hdigs H enc).
Notation alldigs := (alldigs H enc).
Notation wf := (wf H enc).
Notation restore1 := (restore1 show_nat).
Notation iopened := (iopened H enc).
Notation mopened := (mopened H enc).

(* the hidden member g is opened, and so is everything above it: its digest is still listed in the view *)
Inductive OpenedMem (R : Rset) (g : string) (k : option string) (v : json) : atree -> Prop :=
| om_here mems name salt s :
    In (name, (MHid salt, s)) mems -> g = dig_mem salt name s -> R g = true -> k = Some name -> v = blind s ->
    OpenedMem R g k v (AObj mems)
| om_item_in items ik s :
    In (ik, s) items -> iopened R (ik, s) = Some true -> OpenedMem R g k v s -> OpenedMem R g k v (AArr items)
| om_mem_in mems name mk s :
    In (name, (mk, s)) mems -> mopened R (name, (mk, s)) = Some true -> OpenedMem R g k v s -> OpenedMem R g k v (AObj mems).

Lemma OpenedMem_Visible R g k v t : OpenedMem R g k v t -> Visible H enc R g k v t /\ R g = true.
Proof.
  induction 1 as [mems name salt s Hin Hg HRg Hk Hv | items ik s Hin Hop _ [IH HRg] | mems name mk s Hin Hop _ [IH HRg]];
    (split; [|assumption]); [eapply vi_mem_here|eapply vi_item_in|eapply vi_mem_in]; eauto.
Qed.

Theorem restore1_opened_err : forall t, wf t -> forall n R g k v d,
  NoDup (alldigs t) -> NoDup (hdigs t) -> aheight t <= n ->
  OpenedMem R g k v t -> d_digest d = g -> d_key d = k ->
  forall path, restore1 n d path (view R t) = Err.
Proof.
  intros t Hwf n R g k v d Hnd _ Hh Hom Hdg Hdk. apply OpenedMem_Visible in Hom as [Hv HR].
  exact (restore1_reopened H enc show_nat R g k v d t Hv HR Hdg Hdk n Hwf Hnd Hh).
Qed.

Lemma Visible_OpenedMem R g k v t : Visible H enc R g k v t -> R g = true -> OpenedMem R g k v t.
Proof. intros Hv HR. induction Hv; [congruence|eapply om_item_in|eapply om_here|eapply om_mem_in]; eauto. Qed.

Theorem opened_cases R g : forall t, wf t -> NoDup (alldigs t) ->
  occurs g (view R t) = true -> In g (hdigs t) -> R g = true -> exists k v, OpenedMem R g k v t.
Proof.
  intros t Hw Hnd Ho Hh HR. destruct (visible H enc R g t Hw Hnd Ho Hh) as (k & v & Hv).
  exists k, v. apply Visible_OpenedMem; assumption.
Qed.
End Q.

Section Any.
Variable H : string -> string.
Variable enc : list json -> string.
Variable dec : string -> dec_result.
Variable show_nat : nat -> string.
Hypothesis hash_inj : forall x y, H x = H y -> x = y.
Hypothesis dec_enc : forall ps, dec (enc ps) = DJson (JArr ps).
Variable t : atree.
Hypothesis Hwf : wf H enc t.
Hypothesis Hnd : NoDup (alldigs H enc t).
Hypothesis Hndh : NoDup (hdigs H enc t).
Hypothesis Hheight : aheight t <= 129.

(* C03 for arbitrary lists: any order, any repetitions, own / foreign / malformed strings *)
Theorem restore_any_spec (L : list string) :
  (forall s, In s L -> In (H s) (alldigs H enc t) -> In (H s) (hdigs H enc t)) ->
  restore_disclosures H dec show_nat (blind H enc t) L = Err \/
  exists ps, restore_disclosures H dec show_nat (blind H enc t) L = Ok (view H enc (ownS H L) t, ps).
Proof.
  intros Hdecoy. unfold restore_disclosures, restore_passes.
  destruct (decode_all H dec L) as [ds|] eqn:Ed; [|left; reflexivity]. cbn [bind].
  destruct (decode_all_spec H enc dec hash_inj dec_enc t Hwf L ds Ed Hdecoy) as [Hm HF].
  destruct (passes_any H enc show_nat t Hwf Hnd Hndh Hheight (own ds) (S (List.length ds)) ds R0 []) as [[He _]|(more & Rf & ps' & rem & b & _ & _ & Hp & _)].
  - apply Nat.lt_succ_diag_r.
  - apply closedR_R0.
  - assumption.
  - intros g. rewrite own_true, in_map_iff. split; [intros [d [Hd Hq]]; eauto|intros [[=]|[d [Hq Hd]]]; eauto].
  - left. rewrite <- (view_R0_blind H enc), He. reflexivity.
  - rewrite <- (view_R0_blind H enc), Hp. cbn [bind app].
    destruct (insert_all (placed_item_digests ps') []) as [seen|]; [|left; reflexivity]. cbn [bind].
    destruct (check_digests 129 (view H enc (own ds) t) seen) as [seen'|]; [|left; reflexivity]. cbn [bind].
    right. exists ps'. rewrite (view_ownS H enc t ds L Hm). reflexivity.
Qed.
End Any.
