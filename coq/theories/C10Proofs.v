(* C10 at the entry points: the only way a panic can surface from Verifier::verify, Holder::verify,
   Holder::presentation or Holder::build is through a dependency (the JWT oracles); the library's own code
   paths - splitting, key-binding checks, restoration, stripping - are total for every input string. *)
From Coq Require Import List String Bool Lia.
Import ListNotations.
Require Import SDJ.Wire SDJ.Model2 SDJ.Out SDJ.Split SDJ.SplitMProofs SDJ.Verify.
Local Open Scope string_scope.

Section C10.
Variable O : oracles.
Hypothesis jwt_np : forall j, o_jwt O j <> Panic.
Hypothesis kb_np : forall k n e, o_kb O k n e <> Panic.

Lemma verify_kb_no_panic kb cnf : verify_kb O kb cnf <> Panic.
Proof.
  unfold verify_kb. destruct (jget "kty" cnf); try discriminate. destruct (negb _); [discriminate|].
  destruct (jget "e" cnf); try discriminate. destruct (jget "n" cnf); try discriminate.
  apply obind_no_panic; [apply kb_np|]. intros [h c]. destruct (jget "typ" h); try discriminate. destruct (String.eqb _ _); discriminate.
Qed.

Lemma restore_and_strip_no_panic claims ds : restore_and_strip O claims ds <> Panic.
Proof.
  unfold restore_and_strip. destruct (declared_halg _); [|discriminate].
  apply obind_no_panic; [apply of_res_no_panic|]. discriminate.
Qed.

Theorem verifier_verify_raw_no_panic token kbpol : verifier_verify_raw O token kbpol <> Panic.
Proof.
  unfold verifier_verify_raw. rewrite sd_jwt_parts_m_total. cbn [obind]. destruct (sd_jwt_parts token) as [[jwt ds] kb].
  apply obind_no_panic; [apply jwt_np|]. intros [h c].
  destruct (is_null (jget "cnf" c) && _); [discriminate|]. destruct (negb (is_null (jget "cnf" c)) && _); [discriminate|].
  destruct (declared_halg _); [|discriminate].
  apply obind_no_panic; [|discriminate].
  destruct kb as [k|]; [|discriminate]. destruct (negb kbpol); [discriminate|].
  apply obind_no_panic; [apply verify_kb_no_panic|]. intros kc. destruct (jget "sd_hash" (snd kc)); try discriminate.
  rewrite drop_kb_m_total. cbn [obind]. destruct (String.eqb _ _); discriminate.
Qed.

Theorem verifier_verify_no_panic token kbpol : verifier_verify O token kbpol <> Panic.
Proof.
  unfold verifier_verify. apply obind_no_panic; [apply verifier_verify_raw_no_panic|]. intros [[h c] ds].
  apply obind_no_panic; [apply restore_and_strip_no_panic|]. discriminate.
Qed.

Lemma holder_verify_raw_no_panic token : holder_verify_raw O token <> Panic.
Proof.
  unfold holder_verify_raw. rewrite sd_jwt_parts_m_total. cbn [obind]. destruct (sd_jwt_parts token) as [[jwt ds] [k|]]; [discriminate|].
  apply obind_no_panic; [apply jwt_np|]. intros [h c]. destruct (declared_halg c); discriminate.
Qed.

Theorem holder_verify_no_panic token : holder_verify O token <> Panic.
Proof.
  unfold holder_verify. apply obind_no_panic; [apply holder_verify_raw_no_panic|]. intros [[h c] ds].
  apply obind_no_panic; [apply restore_and_strip_no_panic|]. discriminate.
Qed.

Theorem holder_presentation_no_panic token : holder_presentation O token <> Panic.
Proof.
  unfold holder_presentation. rewrite sd_jwt_parts_m_total. cbn [obind]. destruct (sd_jwt_parts token) as [[jwt ds] kb].
  destruct kb; [discriminate|].
  apply obind_no_panic; [apply jwt_parts_m_no_panic|]. intros [[a b] c].
  apply obind_no_panic; [apply of_res_no_panic|]. intros claims. destruct (declared_halg _); [|discriminate].
  apply obind_no_panic; [apply of_res_no_panic|]. discriminate.
Qed.

Theorem holder_build_no_panic (E : build_env) h : (forall hd c, e_sign E hd c <> Panic) -> holder_build O E h <> Panic.
Proof.
  intros Hs. unfold holder_build.
  apply obind_no_panic; [apply jwt_parts_m_no_panic|]. intros [[a b] c].
  apply obind_no_panic; [apply of_res_no_panic|]. intros claims.
  destruct (kb_bound claims && _); [discriminate|]. destruct (kb_bound claims); [|discriminate].
  destruct (declared_halg _); [|discriminate]. destruct (h_kb h) as [[aud jalg]|]; [|discriminate].
  apply obind_no_panic; [apply Hs|]. discriminate.
Qed.
End C10.
